From Coq Require Import List Reals Lra.
Import ListNotations.
From SM Require Import Base.Tactics Base.Num C03.Model C03.Proofs C03.Extend.
Open Scope R_scope.

(* pinhole: for every grid, point and width, with w the cdf differences masked to the window [q - nlo sigma,
   q + nhi sigma] (-2.5, +3 sigma in the code): the column of the weight matrix sums to one when sum(w) <> 0, and is
   non-negative when the cdf values do not decrease along the edges and sum(w) > 0 *)
Theorem C03_pinhole_sum1 : forall q_calc cdf q sigma nlo nhi,
  let w := map (fun '(qc, x) => if ltb ROps qc (q - nlo * sigma) then 0 else if ltb ROps (q + nhi * sigma) qc then 0 else x)
               (combine q_calc (diffs ROps cdf)) in
  sumL ROps w <> 0 -> sumL ROps (pinhole_column ROps q_calc cdf q sigma nlo nhi) = 1.
Proof. intros q_calc cdf q sigma nlo nhi w H. exact (normalised_sum1 w H). Qed.
Print Assumptions C03_pinhole_sum1.

Theorem C03_pinhole_nonneg : forall q_calc cdf q sigma nlo nhi,
  (forall i, (S i < length cdf)%nat -> nth i cdf 0 <= nth (S i) cdf 0) ->
  let w := map (fun '(qc, x) => if ltb ROps qc (q - nlo * sigma) then 0 else if ltb ROps (q + nhi * sigma) qc then 0 else x)
               (combine q_calc (diffs ROps cdf)) in
  0 < sumL ROps w -> Forall (fun x => 0 <= x) (pinhole_column ROps q_calc cdf q sigma nlo nhi).
Proof.
  intros q_calc cdf q sigma nlo nhi Hm w Hp. apply (normalised_nonneg w); [|exact Hp].
  apply Forall_map, Forall_forall. intros [qc x] Hin.
  destruct (ltb ROps qc (q - nlo * sigma)); [lra|]. destruct (ltb ROps (q + nhi * sigma) qc); [lra|].
  apply in_combine_r in Hin. revert x Hin. apply Forall_forall, diffs_nonneg, Hm.
Qed.
Print Assumptions C03_pinhole_nonneg.

(* slit of extent w > 0 only ([perp_weights]: l = 0 in [slit_column]): the u-substituted bins telescope to exactly
   one when the bin edges start at or below |qi| and end at or beyond sqrt(qi^2 + w^2) (so there are at least two:
   the hypothesis rest <> [] is implied and not used) *)
Theorem C03_slit_length_sum1 : forall e0 rest qi w,
  0 < w -> e0 <= Rabs qi -> sqrt (qi * qi + w * w) <= last rest e0 -> rest <> [] ->
  sumL ROps (perp_weights ROps sqrt (e0 :: rest) qi w) = 1.
Proof.
  intros e0 rest qi w Hw H0 Hl _. pose proof (abs_lt_ulim qi w Hw) as Hlt.
  rewrite perp_weights_sum.
  rewrite uval_high by assumption.          (* last edge: w * w *)
  rewrite uval_low by (lra || assumption).  (* first edge: 0, by H0; |qi| is below the limit by Hlt *)
  rewrite sqrt_0, sqrt_square by lra. field. lra.
Qed.
Print Assumptions C03_slit_length_sum1.

(* smearing is linear: the scale passes through, the background is multiplied by the column sum - so for
   sumL col = 1 it passes through too and a flat intensity is unchanged *)
Theorem C03_affine : forall a b theory col, length theory = length col ->
  apply ROps (map (fun t => a * t + b) theory) col = a * apply ROps theory col + b * sumL ROps col.
Proof.
  intros a b theory col Hl. unfold apply. rewrite !sumL_sumT.
  revert col Hl. induction theory as [|t th IH]; intros [|c col] Hl; try discriminate Hl.
  - cbn. ring.
  - injection Hl as Hl. cbn [map combine sumT]. rewrite (IH col Hl). cbn [add mul ROps]. ring.
Qed.
Print Assumptions C03_affine.

Theorem C03_constant : forall k col n, length col = n -> sumL ROps col = 1 -> apply ROps (repeat k n) col = k.
Proof.
  intros k col n Hn Hs. replace (repeat k n) with (map (fun t => 0 * t + k) (repeat 0 n)).
  - rewrite C03_affine, Hs by (rewrite repeat_length; auto). ring.
  - clear. induction n; simpl; f_equal; [ring|auto].
Qed.
Print Assumptions C03_constant.

(* The default pinhole calculation grid (pinhole_extend_q, linear_extrapolation, then the low-|q| cut and abs of Pinhole1D.__init__;
   C03/Extend.v), for every data set, widths and extension counts >= 1.  Before the cut the grid starts at or below
   q_i - nlo w_i (+ 2 MINIMUM_RESOLUTION) and ends at or above q_i + nhi w_i (- 2 MINIMUM_RESOLUTION) for EVERY data
   point i (nlo, nhi = 2.5, 3 in the code), and it contains every data point; after the cut every requested value
   is at least the cutoff (0.02 min q in the code) > 0, and every point at or beyond the cutoff is kept. *)
Theorem C03_default_grid_covers : forall minres2, (0 <= minres2)%R ->
  forall (q w : list R) nlo nhi n_low n_high i,
  length q = length w -> (i < length q)%nat -> (1 <= n_low)%nat -> (1 <= n_high)%nat ->
  let g := pinhole_extend ROps minres2 q w nlo nhi n_low n_high in
  (hd 0 g <= nth i q 0 - nlo * nth i w 0 + minres2)%R /\ (nth i q 0 + nhi * nth i w 0 - minres2 <= last g 0)%R.
Proof. exact pinhole_extend_covers. Qed.
Print Assumptions C03_default_grid_covers.

Theorem C03_default_grid_contains_data : forall minres2 (q : list R) q_min q_max n_low n_high x,
  In x q -> In x (lin_extrap ROps minres2 q q_min q_max n_low n_high).
Proof. exact lin_extrap_contains. Qed.
Print Assumptions C03_default_grid_contains_data.

Theorem C03_requested_q_positive : forall cutoff l x, (0 < cutoff)%R ->
  (In x (positive_cut ROps cutoff l) -> (cutoff <= x)%R /\ (0 < x)%R) /\
  ((cutoff <= Rabs x)%R -> In x l -> In (Rabs x) (positive_cut ROps cutoff l)).
Proof. intros cutoff l x Hc. split; [apply positive_cut_positive; exact Hc | apply positive_cut_keeps]. Qed.
Print Assumptions C03_requested_q_positive.

(* slit smearing with perfect resolution (no width, no length): weight one on the FIRST entry of q_calc equal to the
   data q - non-negative, summing to one, and reproducing the unsmeared value exactly, however often the q value
   occurs in q_calc (merged data sets repeat q values) *)
Theorem C03_slit_perfect : forall (f : R -> R) qi q_calc, In qi q_calc ->
  sumL ROps (first_match ROps q_calc qi) = 1 /\
  Forall (fun x => 0 <= x) (first_match ROps q_calc qi) /\
  apply ROps (map f q_calc) (first_match ROps q_calc qi) = f qi.
Proof.
  intros f qi q_calc H. split; [|split].
  - (* the column sum is what the constant intensity 1 is smeared to *)
    pose proof (C03_affine 0 1 q_calc _ (eq_sym (first_match_length qi q_calc))) as Ha.
    rewrite (first_match_reproduces (fun t => 0 * t + 1) qi q_calc H) in Ha. lra.
  - apply first_match_nonneg.
  - apply first_match_reproduces, H.
Qed.
Print Assumptions C03_slit_perfect.
Theorem C03_slit_perfect_is_first_match : forall sqrtT half two q_calc qi n,
  slit_column ROps sqrtT half two q_calc qi 0 0 n = first_match ROps q_calc qi.
Proof. intros. unfold slit_column. cbn [eqb zero ROps]. rewrite Reqb_refl. reflexivity. Qed.
Print Assumptions C03_slit_perfect_is_first_match.

(* the weights the theorems above speak about are those of the CODE: the element formulas regenerated from the
   current text of sasmodels/resolution.py (Gen/C03_code.v; bin_edges, pinhole_resolution, _q_perp_weights and
   apply_resolution_matrix evaluated on symbolic arrays) are the model's, on the reals and on binary64 alike *)
From SM Require Import Gen.C03_code C03.Translated.
Theorem C03_code_pinhole_column : forall (T : Type) (O : Ops T) q_calc cdf q sigma nlo nhi, translated = true ->
  pinhole_column O q_calc cdf q sigma nlo nhi =
  let w := map (fun x => code_pin_elem O (fst x) q sigma nlo nhi (fst (snd x)) (snd (snd x))) (combine q_calc (pairs cdf)) in
  map (fun x => div O x (sumL O w)) w.
Proof.
  intros T O q_calc cdf q sigma nlo nhi Ht. unfold pinhole_column. rewrite diffs_pairs. cbv zeta.
  rewrite (pin_elems O q sigma nlo nhi Ht q_calc (pairs cdf)). reflexivity.
Qed.
Print Assumptions C03_code_pinhole_column.
Theorem C03_code_bin_edges : forall (T : Type) (O : Ops T) half x0 x1 xl xp r r', translated = true ->
  rev (x0 :: x1 :: r) = xl :: xp :: r' ->
  bin_edges O half (x0 :: x1 :: r) =
  code_edge_first O half x0 x1 :: map (fun ab => code_edge_mid O half (fst ab) (snd ab)) (pairs (x0 :: x1 :: r)) ++ [code_edge_last O half xp xl].
Proof.
  intros T O half x0 x1 xl xp r r' Ht Hr. untranslated Ht.
  all: unfold bin_edges; rewrite Hr, mids_pairs; reflexivity.
Qed.
Print Assumptions C03_code_bin_edges.
Theorem C03_code_perp_weights : forall (T : Type) (O : Ops T) sqrtT edges qi w, translated = true ->
  perp_weights O sqrtT edges qi w = map (fun ab => code_perp_elem O sqrtT qi w (fst ab) (snd ab)) (pairs edges).
Proof.
  intros T O sqrtT edges qi w Ht. untranslated Ht.
  all: unfold perp_weights; rewrite diffs_pairs, !pairs_map, !map_map; apply map_ext; intros [a b]; reflexivity.
Qed.
Print Assumptions C03_code_perp_weights.
Theorem C03_code_apply : forall (T : Type) (O : Ops T) theory column, translated = true ->
  code_apply O theory column = apply O theory column.
Proof.
  intros T O theory column Ht. untranslated Ht.
  all: unfold code_apply, apply; f_equal; apply map_ext; intros [t w]; reflexivity.
Qed.
Print Assumptions C03_code_apply.

(* which data sets are smeared at all (DataMixin._interpret_data): a data set in which SOME selected point has a
   positive width gets pinhole smearing - its theory is then requested over every point's window - and an unsmeared data
   set has no positive width; the choice is read from the current direct_model.py on every run (Gen/C03_dispatch.v) *)
From SM Require Import C03.Dispatch Gen.C03_dispatch.
Theorem C03_positive_width_is_smeared : forall (dq : list R) a b w, In w dq -> 0 < w -> dispatch ROps (Some dq) a b = RPinhole.
Proof.
  intros dq a b w Hin Hw. unfold dispatch. rewrite (proj2 (existsb_exists _ dq)); [reflexivity|].
  exists w. split; [exact Hin | apply Rltb_true, Hw].
Qed.
Print Assumptions C03_positive_width_is_smeared.
Theorem C03_unsmeared_means_no_positive_width : forall (dq : list R) a b, dispatch ROps (Some dq) a b = RPerfect -> forall w, In w dq -> w <= 0.
Proof.
  intros dq a b H w Hin. apply Rnot_lt_le. intros Hw.
  rewrite (C03_positive_width_is_smeared dq a b w Hin Hw) in H. discriminate H.
Qed.
Print Assumptions C03_unsmeared_means_no_positive_width.
Theorem C03_code_dispatch : dispatch_translated = true -> forall (T : Type) (O : Ops T) dx a b, code_dispatch O dx a b = dispatch O dx a b.
Proof. intros Ht. untranslated Ht. all: reflexivity. Qed.
Print Assumptions C03_code_dispatch.

(* WHERE the flat background enters is read from the current text of DataMixin._calc_theory (Gen/C03_theory.v:
   straight-line reading over the caller's background, the kernel evaluated with a given background parameter, and
   the resolution's apply).  The kernel is asked for background 0 and the caller's background is added to the smeared
   values - so, with the kernel's documented form scale*X + background (C01) and a resolution that is a matrix (one
   weight column per data point), the result is scale * (smeared X) + background for EVERY weight matrix: the
   background is not multiplied by the column sums (C03_affine), which differ from one for slit columns at the ends
   of the grid.  For SESANS data nothing is added ([if sesans then 0 else bg]). *)
From SM Require Import Gen.C03_theory.
Theorem C03_code_theory : theory_translated = true -> forall sesans res kern bg,
  code_theory ROps sesans res kern bg = map (fun x => x + (if sesans then 0 else bg)) (res (kern 0)).
Proof.
  intros Ht sesans res kern bg. untranslated Ht.
  (* [ring] under the map: a source that writes "background + result" for "result + background" keeps the proof *)
  all: unfold code_theory; cbn [add zero ROps]; apply map_ext; intros x; destruct sesans; ring.
Qed.
Print Assumptions C03_code_theory.
Lemma code_theory_affine : theory_translated = true -> forall sesans cols X a bg,
  Forall (fun col => length X = length col) cols ->
  code_theory ROps sesans (fun v => map (apply ROps v) cols) (fun b => map (fun x => a * x + b) X) bg
  = map (fun col => a * apply ROps X col + (if sesans then 0 else bg)) cols.
Proof.
  intros Ht sesans cols X a bg Hl. rewrite (C03_code_theory Ht), map_map. apply map_ext_in. intros col Hin.
  rewrite Forall_forall in Hl. rewrite C03_affine by (apply Hl; exact Hin). ring.
Qed.
Theorem C03_code_background_after : theory_translated = true -> forall cols X a bg,
  Forall (fun col => length X = length col) cols ->
  code_theory ROps false (fun v => map (apply ROps v) cols) (fun b => map (fun x => a * x + b) X) bg
  = map (fun col => a * apply ROps X col + bg) cols.
Proof. intros Ht cols X a bg Hl. exact (code_theory_affine Ht false cols X a bg Hl). Qed.
Print Assumptions C03_code_background_after.
Theorem C03_code_sesans_no_background : theory_translated = true -> forall cols X a bg,
  Forall (fun col => length X = length col) cols ->
  code_theory ROps true (fun v => map (apply ROps v) cols) (fun b => map (fun x => a * x + b) X) bg
  = map (fun col => a * apply ROps X col) cols.
Proof.
  intros Ht cols X a bg Hl. rewrite (code_theory_affine Ht true cols X a bg Hl). apply map_ext. intros col. ring.
Qed.
Print Assumptions C03_code_sesans_no_background.
