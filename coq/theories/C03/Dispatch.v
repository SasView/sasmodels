(* C03/Dispatch.v — which 1-D resolution class a data set gets (DataMixin._interpret_data): pinhole smearing as soon as
   ONE selected point has a positive width (points without a width are then smeared with the smallest usable width),
   slit smearing when slit extents are given, otherwise none.  Declarations only: Gen/C03_dispatch.v is written
   over them. *)
From Coq Require Import List Bool.
From SM Require Import Base.Num.

Inductive res_kind := RPinhole | RPerfect | RSlit.

Definition dispatch {T : Type} (O : Ops T) (dx : option (list T)) (has_dxl has_dxw : bool) : res_kind :=
  match dx with
  | Some dq => if existsb (fun w => ltb O (zero O) w) dq then RPinhole else RPerfect
  | None => if has_dxl || has_dxw then RSlit else RPerfect
  end.
