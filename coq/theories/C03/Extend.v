(* C03/Extend.v — the default calculation grid of pinhole smearing (resolution.py), with its coverage and positivity
   lemmas.  numpy.linspace is C02.Model.linspace; the two extension counts n_low, n_high (a ceil of a quotient in
   the code) are inputs. *)
From Coq Require Import List Reals Lra Lia.
Import ListNotations.
From SM Require Import Base.Num Base.Lists C02.Model C02.Proofs.

Section Model.
  Context {T : Type} (O : Ops T).
  Variable minres2 : T.        (* 2 * MINIMUM_RESOLUTION *)

  Definition minT (a b : T) : T := if ltb O b a then b else a.
  Definition maxT' (a b : T) : T := if ltb O a b then b else a.
  Definition list_min (d : T) (l : list T) : T := match l with [] => d | x :: r => fold_left minT r x end.
  Definition list_max (d : T) (l : list T) : T := match l with [] => d | x :: r => fold_left maxT' r x end.

  (* linear_extrapolation(q, q_min, q_max) below its q = np.sort(q): [q] stands for the sorted array *)
  Definition lin_extrap (q : list T) (q_min q_max : T) (n_low n_high : nat) : list T :=
    match q with
    | [] => []
    | q0 :: _ =>
        let qn := last q q0 in
        let q_low := if ltb O (add O q_min minres2) q0 then removelast (linspace O q_min q0 (S n_low)) else [] in
        let q_high := if ltb O qn (sub O q_max minres2) then tl (linspace O qn q_max (S n_high)) else [] in
        q_low ++ q ++ q_high
    end.

  (* pinhole_extend_q(q, q_width, nsigma=(nlo, nhi)) *)
  Definition pinhole_extend (q w : list T) (nlo nhi : T) (n_low n_high : nat) : list T :=
    let q_min := list_min (zero O) (map (fun qw => sub O (fst qw) (mul O nlo (snd qw))) (combine q w)) in
    let q_max := list_max (zero O) (map (fun qw => add O (fst qw) (mul O nhi (snd qw))) (combine q w)) in
    lin_extrap q q_min q_max n_low n_high.

  (* Pinhole1D.__init__: drop |q_calc| < cutoff (= 0.02 min q), then take absolute values *)
  Definition positive_cut (cutoff : T) (l : list T) : list T :=
    map (absv O) (filter (fun x => leb O cutoff (absv O x)) l).
End Model.

Local Open Scope R_scope.

Lemma minT_le a b : minT ROps a b <= a /\ minT ROps a b <= b.
Proof. unfold minT; cbn [ltb ROps]. destruct (Rltb_spec b a); lra. Qed.
Lemma maxT_ge a b : a <= maxT' ROps a b /\ b <= maxT' ROps a b.
Proof. exact (C02.Proofs.maxT_ge a b). Qed.

Lemma fold_min_le r x y : (y = x \/ In y r) -> fold_left (minT ROps) r x <= y.
Proof.
  (* [fold_left_ub] for the order >=, in which the minimum is the upper bound *)
  apply (fold_left_ub (fun a b => b <= a) _ Rle_refl); [|exact minT_le].
  intros a b c Hba Hcb. exact (Rle_trans _ _ _ Hcb Hba).
Qed.
Lemma fold_max_ge r x y : (y = x \/ In y r) -> y <= fold_left (maxT' ROps) r x.
Proof. exact (fold_left_ub Rle _ Rle_refl Rle_trans maxT_ge r x y). Qed.
Lemma list_min_le d l y : In y l -> list_min ROps d l <= y.
Proof. destruct l as [|x r]; [contradiction|]. intros H. apply fold_min_le. destruct H; auto. Qed.
Lemma list_max_ge d l y : In y l -> y <= list_max ROps d l.
Proof. destruct l as [|x r]; [contradiction|]. intros H. apply fold_max_ge. destruct H; auto. Qed.

Lemma linspace_hd a b n : (1 <= n)%nat -> hd 0 (linspace ROps a b (S n)) = a.
Proof. intros Hn. destruct (linspace_ends a b (S n)) as [m ->]; [lia | reflexivity]. Qed.
Lemma linspace_last a b n : (1 <= n)%nat -> last (linspace ROps a b (S n)) 0 = b.
Proof. intros Hn. destruct (linspace_ends a b (S n)) as [m ->]; [lia|]. rewrite app_comm_cons. apply last_last. Qed.

Section Cover.
  Variable minres2 : R.
  Hypothesis Hm : 0 <= minres2.

  Theorem lin_extrap_low (q : list R) q_min q_max n_low n_high : q <> [] -> (1 <= n_low)%nat ->
    hd 0 (lin_extrap ROps minres2 q q_min q_max n_low n_high) <= q_min + minres2.
  Proof.
    intros Hq Hn. destruct q as [|q0 r]; [contradiction|]. unfold lin_extrap. cbn [add sub ltb ROps].
    destruct (Rltb_spec (q_min + minres2) q0); [|simpl; lra].
    destruct (linspace_ends q_min q0 (S n_low)) as [m ->]; [lia|]. rewrite app_comm_cons, removelast_last. simpl. lra.
  Qed.

  Theorem lin_extrap_high (q : list R) q_min q_max n_low n_high : q <> [] -> (1 <= n_high)%nat ->
    q_max - minres2 <= last (lin_extrap ROps minres2 q q_min q_max n_low n_high) 0.
  Proof.
    intros Hq Hn. destruct (exists_last Hq) as [q' [qn ->]]. destruct (q' ++ [qn]) as [|q0 r] eqn:E; [destruct q'; discriminate|].
    unfold lin_extrap. rewrite <- E, last_last. cbn [add sub ltb ROps].
    destruct (Rltb_spec qn (q_max - minres2)).
    - destruct (linspace_ends qn q_max (S n_high)) as [m ->]; [lia|]. cbn [tl]. rewrite !app_assoc, last_last. lra.
    - rewrite app_nil_r, app_assoc, last_last. lra.
  Qed.

  Theorem lin_extrap_contains (q : list R) q_min q_max n_low n_high x :
    In x q -> In x (lin_extrap ROps minres2 q q_min q_max n_low n_high).
  Proof.
    intros Hx. destruct q as [|q0 r]; [contradiction|]. unfold lin_extrap.
    apply in_or_app. right. apply in_or_app. left. exact Hx.
  Qed.

  Theorem pinhole_extend_covers (q w : list R) nlo nhi n_low n_high i :
    length q = length w -> (i < length q)%nat -> (1 <= n_low)%nat -> (1 <= n_high)%nat ->
    let g := pinhole_extend ROps minres2 q w nlo nhi n_low n_high in
    hd 0 g <= nth i q 0 - nlo * nth i w 0 + minres2 /\ nth i q 0 + nhi * nth i w 0 - minres2 <= last g 0.
  Proof.
    intros Hlen Hi Hnl Hnh g. unfold g, pinhole_extend.
    assert (Hq : q <> []) by (destruct q; simpl in Hi; [lia | discriminate]).
    assert (Hin : In (nth i q 0, nth i w 0) (combine q w)).
    { rewrite <- (combine_nth q w i 0 0 Hlen). apply nth_In. rewrite combine_length. lia. }
    split.
    - eapply Rle_trans; [apply lin_extrap_low; auto|].
      apply Rplus_le_compat_r, list_min_le. exact (in_map _ _ _ Hin).
    - eapply Rle_trans; [|apply lin_extrap_high; auto].
      apply Rplus_le_compat_r, list_max_ge. exact (in_map _ _ _ Hin).
  Qed.
End Cover.

Theorem positive_cut_positive cutoff l x : 0 < cutoff -> In x (positive_cut ROps cutoff l) -> cutoff <= x /\ 0 < x.
Proof.
  intros Hc Hx. unfold positive_cut in Hx. apply in_map_iff in Hx. destruct Hx as [y [Hy Hin]].
  apply filter_In in Hin. destruct Hin as [_ Hle]. cbn [leb absv ROps] in *. apply Rleb_true in Hle. subst x. lra.
Qed.
Theorem positive_cut_keeps cutoff l x : cutoff <= Rabs x -> In x l -> In (Rabs x) (positive_cut ROps cutoff l).
Proof.
  intros Hc Hx. unfold positive_cut. apply in_map_iff. exists x. split; [reflexivity|].
  apply filter_In. split; [exact Hx|]. cbn [leb absv ROps]. apply Rleb_true. exact Hc.
Qed.
