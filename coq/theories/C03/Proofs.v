From Coq Require Import List Reals Lra Lia.
From SM Require Import Base.Num C03.Model.
Local Open Scope R_scope.

Notation sumLR := (sumL ROps).
Notation sumTR := (sumT ROps).

(* [sumTR l] is [fold_right Rplus 0 l] by conversion *)
Lemma sumL_sumT l : sumLR l = sumTR l.
Proof. exact (fold_left_Rplus l). Qed.

Lemma sumT_map_div l t : sumTR (map (fun x => x / t) l) = sumTR l / t.
Proof. induction l as [|x l IH]; simpl; cbn [add zero ROps]; [unfold Rdiv; ring|]. rewrite IH. unfold Rdiv. ring. Qed.

Theorem normalised_sum1 l : sumLR l <> 0 -> sumLR (map (fun x => x / sumLR l) l) = 1.
Proof. intros H. rewrite (sumL_sumT (map _ _)), sumT_map_div, <- sumL_sumT. field. exact H. Qed.

Theorem normalised_nonneg l : Forall (fun x => 0 <= x) l -> 0 < sumLR l ->
  Forall (fun x => 0 <= x) (map (fun x => x / sumLR l) l).
Proof.
  intros H Hp. apply Forall_map. eapply Forall_impl; [|exact H]. intros x Hx.
  apply Rmult_le_pos; [exact Hx | left; apply Rinv_0_lt_compat; exact Hp].
Qed.

(* first and last with one default, so that the induction needs nothing about defaults *)
Lemma sumT_diffs l d : sumTR (diffs ROps l) = last l d - hd d l.
Proof.
  induction l as [|a [|b r] IH]; [cbn; ring ..|].
  change (sumTR (diffs ROps (a :: b :: r))) with ((b - a) + sumTR (diffs ROps (b :: r))). rewrite IH.
  change (last (a :: b :: r) d) with (last (b :: r) d). cbn [hd]. ring.
Qed.

Theorem diffs_telescope a l : sumLR (diffs ROps (a :: l)) = last l a - a.
Proof. rewrite sumL_sumT, (sumT_diffs _ a). destruct l; reflexivity. Qed.

Lemma last_map {A B} (f : A -> B) l d : last (map f l) (f d) = f (last l d).
Proof. induction l as [|x l IH]; simpl; auto. destruct l; simpl in *; auto. Qed.

Lemma diffs_nonneg l : (forall i, (S i < length l)%nat -> nth i l 0 <= nth (S i) l 0) ->
  Forall (fun x => 0 <= x) (diffs ROps l).
Proof.
  induction l as [|a l IH]; intros H; [constructor|].
  destruct l as [|b l]; [constructor|]. cbn [diffs]. constructor.
  - cbn [sub ROps]. specialize (H 0%nat). simpl in H. assert (a <= b) by (apply H; lia). lra.
  - apply IH. intros i Hi. apply (H (S i)). simpl in *. lia.
Qed.

(* the clipped u^2 that [perp_weights] gives the edge e (the two mask assignments of the code) *)
Definition uval (qi ulim e : R) : R :=
  if ltb ROps ulim e then ulim * ulim - qi * qi else if ltb ROps e (Rabs qi) then 0 else e * e - qi * qi.

Lemma perp_weights_sum e0 rest qi w :
  let ulim := sqrt (qi * qi + w * w) in
  sumLR (perp_weights ROps sqrt (e0 :: rest) qi w) = (sqrt (uval qi ulim (last rest e0)) - sqrt (uval qi ulim e0)) / w.
Proof.
  intros ulim. unfold perp_weights. rewrite sumL_sumT, sumT_map_div, map_map.
  rewrite (sumT_diffs _ (sqrt (uval qi ulim e0))), (last_map (fun e => sqrt (uval qi ulim e))). cbn [map hd].
  destruct rest; reflexivity.
Qed.

Lemma abs_lt_ulim qi w : 0 < w -> Rabs qi < sqrt (qi * qi + w * w).
Proof. intros Hw. rewrite <- sqrt_Rsqr_abs. apply sqrt_lt_1_alt. unfold Rsqr. nra. Qed.

Lemma uval_low qi ulim e : Rabs qi <= ulim -> e <= Rabs qi -> uval qi ulim e = 0.
Proof.
  intros Hu He. unfold uval. cbn [ltb ROps].
  destruct (Rltb_spec ulim e); [lra|]. destruct (Rltb_spec e (Rabs qi)); [reflexivity|].
  replace e with (Rabs qi) by lra. rewrite <- Rabs_mult, Rabs_pos_eq by nra. ring.
Qed.
Lemma uval_high qi w e : 0 < w -> sqrt (qi * qi + w * w) <= e -> uval qi (sqrt (qi * qi + w * w)) e = w * w.
Proof.
  intros Hw He. pose proof (abs_lt_ulim qi w Hw) as Hlt. set (ulim := sqrt (qi * qi + w * w)) in *.
  assert (Hsq : ulim * ulim = qi * qi + w * w) by (apply sqrt_sqrt; nra).
  unfold uval. cbn [ltb ROps]. destruct (Rltb_spec ulim e); [lra|].
  destruct (Rltb_spec e (Rabs qi)); [lra|]. replace e with ulim by lra. lra.
Qed.

Lemma apply_zeros theory {A} (r : list A) :
  sumT ROps (map (fun '(t, w) => mul ROps t w) (combine theory (map (fun _ => zero ROps) r))) = 0.
Proof.
  revert r. induction theory as [|t th IH]; intros [|x r]; cbn [map combine sumT]; try reflexivity.
  rewrite IH. cbn [add mul zero ROps]. ring.
Qed.

Lemma first_match_length qi q_calc : length (first_match ROps q_calc qi) = length q_calc.
Proof.
  induction q_calc as [|qc r IH]; [reflexivity|]. cbn [first_match].
  destruct (eqb ROps qc qi); cbn [length]; [rewrite map_length | rewrite IH]; reflexivity.
Qed.

Theorem first_match_nonneg qi : forall q_calc, Forall (fun x => 0 <= x) (first_match ROps q_calc qi).
Proof.
  induction q_calc as [|qc r IH]; [constructor|]. cbn [first_match]. destruct (eqb ROps qc qi).
  - constructor; [cbn; lra|]. apply Forall_map, Forall_forall. intros; cbn; lra.
  - constructor; [cbn; lra|exact IH].
Qed.

Theorem first_match_reproduces (f : R -> R) qi : forall q_calc, In qi q_calc ->
  apply ROps (map f q_calc) (first_match ROps q_calc qi) = f qi.
Proof.
  intros q_calc. unfold apply. rewrite sumL_sumT. induction q_calc as [|qc r IH]; intros Hin; [destruct Hin|].
  cbn [first_match map eqb ROps]. destruct (Reqb_spec qc qi) as [->|Hne].
  - cbn [combine map sumT]. rewrite (apply_zeros (map f r) r). cbn [add mul one ROps]. ring.
  - destruct Hin as [Hin|Hin]; [contradiction|]. cbn [combine map sumT]. rewrite (IH Hin). cbn [add mul zero ROps]. ring.
Qed.
