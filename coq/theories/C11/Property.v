From Coq Require Import List String.
Import ListNotations.
From SM Require Import Base.Tactics Base.Num Base.Mesh C01.Model C11.Model Gen.C11_statics.

(* a call that starts at 0 and covers the mesh overwrites every slot it reads ([run_chunks_independent]) *)
Lemma call_independent {T : Type} (O : Ops T) (a : Args (T:=T)) buf buf' : wf a -> call O a buf = call O a buf'.
Proof.
  intros [Hpos Hcov]. apply map_ext. intros c.
  unfold loop_component. rewrite !run_chunks_independent by assumption. reflexivity.
Qed.

(* Whatever sequence of other evaluations an object has been through (different
   parameter sets, meshes, cutoffs, q vectors - anything that fits in Args), the
   same request returns what it returns on a fresh object: for every carrier,
   hence bit-identically in binary64. *)
Theorem C11_history_independent :
  forall (T : Type) (O : Ops T) (h : list (Args (T:=T))) (a : Args) buf0 fresh,
  wf a -> call O a (run_history O h buf0) = call O a fresh.
Proof. intros. apply call_independent. assumption. Qed.
Print Assumptions C11_history_independent.

Theorem C11_call_Fq_args_unchanged :
  forall (V : Type) (pars : pdict V), fst (call_Fq_entry V pars) = pars.
Proof. intros. unfold call_Fq_entry. destruct (pop V pars "radius_effective_mode"). reflexivity. Qed.
Print Assumptions C11_call_Fq_args_unchanged.

(* the entry point before the repair removed a key from the caller's dictionary *)
Theorem C11_call_Fq_old_refuted :
  forall (V : Type) (v : V), exists pars, fst (call_Fq_entry_old V pars) <> pars.
Proof. intros. exists [("radius_effective_mode"%string, v)]. cbn. discriminate. Qed.
Print Assumptions C11_call_Fq_old_refuted.

(* the model (C11/Model.v) gives a compiled kernel no memory of its own: a call is a function of its arguments and of the
   buffers it overwrites.  What could falsify that silently is a C variable with static storage that is not const
   (a memo of the last solution, a lazily filled table): the C sources the builtin models are compiled from are
   scanned on every run (Gen/C11_statics.v), there is none, and the scan covered at least one file *)
Theorem C11_code_no_static_state : statics_scanned = true -> code_mutable_statics = [] /\ 0 < code_files_scanned.
Proof. intros Ht. untranslated Ht. all: split; [reflexivity | vm_compute; repeat constructor]. Qed.
Print Assumptions C11_code_no_static_state.
(* ... and the Python counterpart: no module-level mutable state in the modules between a request and its numbers
   (the modules and what counts as state: Gen/C11_statics.v) *)
Theorem C11_code_no_module_state : statics_scanned = true -> code_python_module_state = [].
Proof. intros Ht. untranslated Ht. all: reflexivity. Qed.
Print Assumptions C11_code_no_module_state.
