From Coq Require Import List Lia Reals.
Import ListNotations.
From SM Require Import Base.Num Base.Lists C08.Model.

Section Routing.
  Context {T : Type} (O : Ops T).

  Definition npars_of (ps : list (Part (T:=T))) := map (fun p => length (p_pars p)) ps.
  Definition nmag_of (ps : list (Part (T:=T))) := map (fun p => length (p_mag p)) ps.

  Lemma block_length sum (p : Part (T:=T)) : length (block sum p) = blen sum (length (p_pars p)).
  Proof. unfold block, blen. destruct sum; simpl; lia. Qed.

  Lemma par_index_pre sum (pre : list (Part (T:=T))) post :
    par_index sum (npars_of (pre ++ post)) (length pre) = 2 + length (concat (map (block sum) pre)).
  Proof.
    induction pre as [|x pre IH]; simpl. { destruct post; reflexivity. }
    rewrite IH, app_length, block_length. lia.
  Qed.

  Lemma mag_offset_pre (pre : list (Part (T:=T))) post :
    mag_offset (nmag_of (pre ++ post)) (length pre) = length (concat (map p_mag pre)).
  Proof.
    induction pre as [|x pre IH]; simpl. { destruct post; reflexivity. } rewrite IH, app_length. lia.
  Qed.

  Lemma total_length sum (ps : list (Part (T:=T))) : total sum (npars_of ps) = length (concat (map (block sum) ps)).
  Proof.
    induction ps as [|x ps IH]; simpl; auto. rewrite IH, app_length, block_length. reflexivity.
  Qed.

  Lemma nth_map_middle {B} (f : Part (T:=T) -> B) pre p post d : nth (length pre) (map f (pre ++ p :: post)) d = f p.
  Proof. rewrite map_app, <- (map_length f pre). apply nth_middle. Qed.

  (* the value vector as ten consecutive segments: every index _MixtureParts computes is the start of one of them *)
  Lemma values_concat sum scale bg (pre : list (Part (T:=T))) p post spin weights :
    values sum scale bg (pre ++ p :: post) spin weights =
    concat [[scale; bg]; concat (map (block sum) pre); if sum then [p_scale p] else []; p_pars p;
            concat (map (block sum) post); spin; concat (map p_mag pre); p_mag p; concat (map p_mag post); weights].
  Proof.
    unfold values, head, block. rewrite !map_app, !concat_app. simpl. rewrite <- !app_assoc, app_nil_r. reflexivity.
  Qed.

  Lemma head_length sum scale bg (ps : list (Part (T:=T))) spin :
    length (head sum scale bg ps spin) =
    2 + length (concat (map (block sum) ps)) + length spin + length (concat (map p_mag ps)).
  Proof. unfold head. rewrite !app_length. simpl. lia. Qed.

  Theorem routing sum scale bg (pre : list (Part (T:=T))) p post spin weights nw :
    length spin = 4 -> length weights = 2 * nw ->
    let ps := pre ++ p :: post in
    part_values O sum (npars_of ps) (nmag_of ps)
                (length (head sum scale bg ps spin)) nw
                (values sum scale bg ps spin weights) (length pre)
    = [ (if sum then p_scale p else one O); zero O ] ++ p_pars p
      ++ (if 0 <? length (p_mag p) then spin ++ p_mag p else []) ++ weights.
  Proof.
    intros Hspin Hw ps. unfold part_values, ps. rewrite values_concat. set (segs := [_; _; _; _; _; _; _; _; _; _]).
    rewrite head_length, par_index_pre, mag_offset_pre, total_length. unfold npars_of, nmag_of.
    rewrite !nth_map_middle, !map_app, !concat_app. cbn [map concat]. rewrite !app_length, block_length. unfold blen.
    f_equal; [f_equal|f_equal; [|f_equal]].
    - (* own scale: segment 2, a single entry *)
      destruct sum; trivial. apply (nth_concat segs 2 _ _ []); simpl; trivial; lia.
    - (* own parameters: segment 3 *) apply (slice_concat segs 3); destruct sum; simpl; lia.
    - destruct (0 <? _); trivial. f_equal.
      + (* spin state: segment 5 *) apply (slice_concat segs 5); destruct sum; simpl; lia.
      + (* own magnetic triples: segment 7 *) apply (slice_concat segs 7); destruct sum; simpl; lia.
    - (* weights: segment 9 *) apply (slice_concat segs 9); destruct sum; simpl; lia.
  Qed.
End Routing.

Section Combine.
  Open Scope R_scope.

  Fixpoint Rsum (l : list R) : R := match l with [] => 0 | x :: r => x + Rsum r end.
  Fixpoint Rprod (l : list R) : R := match l with [] => 1 | x :: r => x * Rprod r end.

  (* the running sum / product of MixtureKernel.Iq is the plain one ([Rsum l] is [fold_right Rplus 0 l], [Rprod l] is
     [fold_right Rmult 1 l]) *)
  Lemma fold_left_Rsum l : fold_left Rplus l 0 = Rsum l.
  Proof. exact (fold_left_Rplus l). Qed.
  Lemma fold_left_Rprod l : fold_left Rmult l 1 = Rprod l.
  Proof. exact (fold_symmetric Rmult (fun x y z => eq_sym (Rmult_assoc x y z)) 1 (fun y => Rmult_comm 1 y) l). Qed.
End Combine.
