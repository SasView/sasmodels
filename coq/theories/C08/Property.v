From Coq Require Import List Permutation Reals Lra ZArith Lia.
Import ListNotations.
From SM Require Import Base.Tactics Base.Num Base.Lists C08.Model C08.Proofs Gen.C08_code C08.Translated.

(* Routing: for every number of parts, every parameter / magnetic-slot count
   and both operations, the index arithmetic hands part k exactly its own
   scale (or 1 for products), zero background, its own parameters, the shared
   spin state with its own magnetic triples (neither, for a part without
   magnetic parameters), and the shared weight vector.  The value vector is
   taken with its four spin entries: a mixture in which no part has a magnetic
   parameter has none and is outside the statement. *)
Theorem C08_routing :
  forall (T : Type) (O : Ops T) sum scale bg (pre : list (Part (T:=T))) p post spin weights nw,
  length spin = 4 -> length weights = 2 * nw ->
  let ps := pre ++ p :: post in
  part_values O sum (npars_of ps) (nmag_of ps) (length (head sum scale bg ps spin)) nw
              (values sum scale bg ps spin weights) (length pre)
  = [ (if sum then p_scale p else one O); zero O ] ++ p_pars p
    ++ (if 0 <? length (p_mag p) then spin ++ p_mag p else []) ++ weights.
Proof. exact @routing. Qed.
Print Assumptions C08_routing.

Theorem C08_sum : forall scale bg rs,
  combine ROps true scale bg rs = (scale * Rsum rs + bg)%R.
Proof. intros. unfold combine. cbn [add mul zero ROps]. rewrite fold_left_Rsum. reflexivity. Qed.
Print Assumptions C08_sum.

Theorem C08_product : forall scale bg rs,
  combine ROps false scale bg rs = (scale * Rprod rs + bg)%R.
Proof. intros. unfold combine. cbn [add mul one ROps]. rewrite fold_left_Rprod. reflexivity. Qed.
Print Assumptions C08_product.

Theorem C08_order_independent : forall sum scale bg rs rs',
  Permutation rs rs' -> combine ROps sum scale bg rs = combine ROps sum scale bg rs'.
Proof.
  intros sum scale bg rs rs' Hp. unfold combine.
  destruct sum; do 2 f_equal; apply fold_left_perm; trivial; intros; cbn [add mul ROps]; ring.
Qed.
Print Assumptions C08_order_independent.

(* the accumulator of the unrepaired code (replace the running product
   whenever it is zero) is not the product *)
Theorem C08_old_accumulator_refuted :
  exists rs, combine_prod_old ROps 1%R 0%R rs <> (1 * Rprod rs + 0)%R.
Proof.
  (* line * power_law at a root of the line: the zero is replaced by the other factor *)
  exists [0; 2]%R. unfold combine_prod_old. cbn [fold_left add mul zero eqb ROps Rprod].
  rewrite !Reqb_refl. lra.
Qed.
Print Assumptions C08_old_accumulator_refuted.

(* The index arithmetic as it is WRITTEN in mixture.py:
   Gen/C08_code.v is regenerated on every run from the text of _MixtureParts (__init__, __iter__, __next__,
   _part_values, _part_details; Python-ast translation of the integer arithmetic, over Z).  The spin state stands
   after all parameter blocks, and after k calls of __next__ (k at most the number of parts) the iterator stands at
   the model's par_index and magnetic offset of part k, for every list of parts (npars, nmagnetic) and both operations. *)
Theorem C08_code_iterator : forall (sum : bool) (parts : list (nat * nat)) k, translated = true -> k <= length parts ->
  let spin := code_spin_index (Z.of_nat (total sum (np_of parts))) in
  spin = Z.of_nat (total sum (np_of parts) + 2) /\
  code_iter sum parts k (code_init spin) =
  (Z.of_nat (par_index sum (np_of parts) k), Z.of_nat (total sum (np_of parts) + 2 + 4 + mag_offset (nm_of parts) k)).
Proof.
  intros sum parts k Ht Hk spin. untranslated Ht.
  all: assert (Hs : spin = Z.of_nat (total sum (np_of parts) + 2)) by (unfold spin, code_spin_index; lia).
  all: split; [exact Hs|].
  all: unfold code_init; rewrite (iter_shift sum parts k _ _ Ht), Hs.
  all: f_equal; lia.
Qed.
Print Assumptions C08_code_iterator.

(* the bounds of the slices taken at part k, as the list the translation returns: the index of the part's own scale
   (sums), then [lo, hi) of its parameters, of the shared spin state, of its magnetic triples, of the shared weight
   vector and of its rows of the lengths/offsets table.  They are compared with a literal list: its first nine entries
   are the expressions C08.Model.part_values takes nth / slice at (its m is three times the m = nmagnetic of this
   statement), which the statement does not mention *)
Theorem C08_code_slices : forall (sum : bool) (pi mi n m spin nvalues nw : nat), translated = true ->
  (if sum then 1 else 2) <= pi ->
  code_slices sum (Z.of_nat spin) (Z.of_nat pi) (Z.of_nat mi) (Z.of_nat n) (Z.of_nat m) (Z.of_nat nvalues) (Z.of_nat nw) =
  map Z.of_nat
    [ pi; pi + (if sum then 1 else 0); pi + n + (if sum then 1 else 0); spin; spin + 4; mi; mi + 3 * m;
      nvalues; nvalues + 2 * nw; pi + (if sum then 1 else 0) - 2; pi + (if sum then 1 else 0) - 2 + n ].
Proof.
  intros sum pi mi n m spin nvalues nw Ht Hp. untranslated Ht.
  all: unfold code_slices; cbn [map]; destruct sum; repeat (f_equal; try lia).
Qed.
Print Assumptions C08_code_slices.
