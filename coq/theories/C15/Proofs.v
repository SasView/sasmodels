(* The three scanners of C15/Model.v on ANY string.  The matcher of the tagger is sound for the grammar FloatLit
   (complete: Complete.v); the relations Tagged, InsertOnly and Retyped between input and output say where a
   scanner may write, every other character staying in place. *)
From Coq Require Import List Ascii Bool Arith Lia.
Import ListNotations.
From SM Require Import C15.Model.
Open Scope char_scope.

Definition stops (p : ascii -> bool) (s : str) : Prop := match s with [] => True | c :: _ => p c = false end.

Lemma span_spec p s a b : span p s = (a, b) -> s = a ++ b /\ Forall (fun c => p c = true) a /\ stops p b.
Proof.
  revert a b. induction s as [|c r IH]; simpl; intros a b.
  - intros [= <- <-]. repeat constructor.
  - destruct (p c) eqn:Ep.
    + destruct (span p r) as [a' b'] eqn:E. intros [= <- <-]. destruct (IH _ _ eq_refl) as (-> & Ha & Hb). auto.
    + intros [= <- <-]. auto.
Qed.
Lemma span_app p a b : Forall (fun c => p c = true) a -> stops p b -> span p (a ++ b) = (a, b).
Proof.
  intros Ha Hb. induction Ha as [|x l Hx _ IH]; simpl.
  - destruct b as [|k b]; simpl in *; [|rewrite Hb]; reflexivity.
  - rewrite Hx, IH. reflexivity.
Qed.

Lemma eqb_apart (p : ascii -> bool) c k : p c = true -> p k = false -> Ascii.eqb c k = false.
Proof. intros Hc Hk. destruct (Ascii.eqb_spec c k); [congruence | reflexivity]. Qed.

Lemma orb_eqb_cases c a b : Ascii.eqb c a || Ascii.eqb c b = true -> c = a \/ c = b.
Proof. intros H. apply orb_true_iff in H. destruct H as [H|H]; apply Ascii.eqb_eq in H; auto. Qed.

(* the right-nested form of a concatenation; [autorewrite with reassoc] closes s = m ++ rest goals *)
Global Hint Rewrite <- app_assoc app_comm_cons : reassoc.

(* FLOAT_RE of generate.py between its look-arounds, in the letters of the comment above it there:
     (Z|N)(PF?|(PF?)?E) | PFE?     Z = 0, N = a non-zero digit and any digits, P = the point,
                                   F = one or more digits, E = e or E, an optional sign, one or more digits *)
Definition digits (l : str) : Prop := Forall (fun c => is_digit c = true) l.
Inductive IntPart : str -> Prop :=
| ip_zero : IntPart ["0"]
| ip_nat c ds : is_digit c = true -> c <> "0" -> digits ds -> IntPart (c :: ds).
Inductive Exponent : str -> Prop :=
| exp_plain e ds : (e = "e" \/ e = "E") -> ds <> [] -> digits ds -> Exponent (e :: ds)
| exp_signed e sg ds : (e = "e" \/ e = "E") -> (sg = "+" \/ sg = "-") -> ds <> [] -> digits ds -> Exponent (e :: sg :: ds).
Inductive FloatLit : str -> Prop :=
| fl_point ip fs : IntPart ip -> digits fs -> FloatLit (ip ++ "." :: fs)
| fl_point_exp ip fs ex : IntPart ip -> digits fs -> Exponent ex -> FloatLit (ip ++ "." :: fs ++ ex)
| fl_exp ip ex : IntPart ip -> Exponent ex -> FloatLit (ip ++ ex)
| fl_frac fs : fs <> [] -> digits fs -> FloatLit ("." :: fs)
| fl_frac_exp fs ex : fs <> [] -> digits fs -> Exponent ex -> FloatLit ("." :: fs ++ ex).

Lemma opt_sign_spec s sg r : opt_sign s = (sg, r) -> s = sg ++ r /\ (sg = [] \/ sg = ["+"] \/ sg = ["-"]).
Proof.
  unfold opt_sign. destruct s as [|c r']; [intros [= <- <-]; auto|].
  destruct (Ascii.eqb c "+" || Ascii.eqb c "-") eqn:E; intros [= <- <-]; auto.
  apply orb_eqb_cases in E. destruct E; subst; auto.
Qed.
Lemma opt_sign_none c s : Ascii.eqb c "+" || Ascii.eqb c "-" = false -> opt_sign (c :: s) = ([], c :: s).
Proof. intros H. unfold opt_sign. rewrite H. reflexivity. Qed.

(* exponent scans its optional sign inline; that scan is opt_sign *)
Lemma exponent_cons e t :
  exponent (e :: t) =
  if Ascii.eqb e "e" || Ascii.eqb e "E" then
    let (sg, r1) := opt_sign t in let (ds, r2) := span is_digit r1 in
    match ds with [] => None | _ => Some (e :: sg ++ ds, r2) end
  else None.
Proof. reflexivity. Qed.

Lemma exponent_sound s ex r : exponent s = Some (ex, r) -> Exponent ex /\ s = ex ++ r.
Proof.
  destruct s as [|e t]; [discriminate|]. rewrite exponent_cons.
  destruct (Ascii.eqb e "e" || Ascii.eqb e "E") eqn:Ee; [|discriminate]. apply orb_eqb_cases in Ee.
  destruct (opt_sign t) as [sg r1] eqn:Es. apply opt_sign_spec in Es. destruct Es as [-> Hsg].
  destruct (span is_digit r1) as [ds r2] eqn:Ed. apply span_spec in Ed. destruct Ed as (-> & Hd & _).
  destruct ds as [|d ds]; [discriminate|]. intros [= <- <-]. split; [|now autorewrite with reassoc].
  destruct Hsg as [->|[->| ->]]; constructor; auto; discriminate.
Qed.

Lemma exponent_complete ex t : Exponent ex -> stops is_digit t -> exponent (ex ++ t) = Some (ex, t).
Proof.
  intros H Hn. inversion H as [e ds He Hne Hd | e sg ds He Hs Hne Hd]; subst; cbn [app]; rewrite exponent_cons;
    replace (Ascii.eqb e "e" || Ascii.eqb e "E") with true by (destruct He; subst; reflexivity).
  - destruct ds as [|d0 ds']; [contradiction|]. cbn [app]. rewrite opt_sign_none.
    + change (d0 :: ds' ++ t) with ((d0 :: ds') ++ t). rewrite (span_app _ _ _ Hd Hn). reflexivity.
    + inversion Hd as [|? ? Hd0 _]; subst. rewrite !(eqb_apart is_digit d0) by trivial. reflexivity.
  - replace (opt_sign (sg :: ds ++ t)) with ([sg], ds ++ t) by (destruct Hs; subst; reflexivity).
    rewrite (span_app _ _ _ Hd Hn). destruct ds; [contradiction|reflexivity].
Qed.

(* the integer part, as match_float scans it inline *)
Definition int_part (c : ascii) (r : str) : str * str :=
  if Ascii.eqb c "0" then ([c], r) else let (ds, r') := span is_digit r in (c :: ds, r').

Lemma int_part_sound c r ip r1 : is_digit c = true -> int_part c r = (ip, r1) -> IntPart ip /\ c :: r = ip ++ r1.
Proof.
  intros Hc. unfold int_part. destruct (Ascii.eqb_spec c "0") as [->|Hz].
  - intros [= <- <-]. split; [constructor|reflexivity].
  - destruct (span is_digit r) as [ds r'] eqn:Esp. apply span_spec in Esp. destruct Esp as (-> & Hd & _).
    intros [= <- <-]. split; [constructor; auto|reflexivity].
Qed.
Lemma int_part_complete ip t : IntPart ip -> stops is_digit t ->
  exists c r, ip ++ t = c :: r /\ is_digit c = true /\ int_part c r = (ip, t).
Proof.
  intros H Hn. inversion H as [|c ds Hc Hz Hd]; subst.
  - exists "0", t. auto.
  - exists c, (ds ++ t). unfold int_part. rewrite (proj2 (Ascii.eqb_neq c "0") Hz), (span_app _ _ _ Hd Hn). auto.
Qed.

Theorem match_float_sound s m rest :
  match_float s = Some (m, rest) -> FloatLit m /\ boundary rest = true /\ s = m ++ rest.
Proof.
  unfold match_float. destruct s as [|c r]; [discriminate|].
  destruct (is_digit c) eqn:Ed.
  - change (if Ascii.eqb c "0" then _ else _) with (int_part c r). destruct (int_part c r) as [ip r1] eqn:Eip.
    apply (int_part_sound _ _ _ _ Ed) in Eip. destruct Eip as [HI ->].
    destruct r1 as [|d r2]; [discriminate|].
    destruct (Ascii.eqb_spec d ".") as [->|_].
    + destruct (span is_digit r2) as [fs r3] eqn:Esp. apply span_spec in Esp. destruct Esp as (-> & Hfs & _).
      destruct (boundary r3) eqn:Eb.
      * intros [= <- <-]. repeat split; auto using fl_point. now autorewrite with reassoc.
      * destruct (exponent r3) as [[ex r4]|] eqn:Ex; [|discriminate]. destruct (boundary r4) eqn:Eb4; [|discriminate].
        apply exponent_sound in Ex. destruct Ex as [Hex ->]. intros [= <- <-].
        repeat split; auto using fl_point_exp. now autorewrite with reassoc.
    + destruct (exponent (d :: r2)) as [[ex r4]|] eqn:Ex; [|discriminate]. destruct (boundary r4) eqn:Eb4; [|discriminate].
      apply exponent_sound in Ex. destruct Ex as [Hex ->]. intros [= <- <-].
      repeat split; auto using fl_exp. now autorewrite with reassoc.
  - destruct (Ascii.eqb_spec c ".") as [->|_]; [|discriminate].
    destruct (span is_digit r) as [fs r1] eqn:Esp. apply span_spec in Esp. destruct Esp as (-> & Hfs & _).
    destruct fs as [|f0 fs]; [discriminate|]. assert (Hne : f0 :: fs <> []) by discriminate.
    destruct (exponent r1) as [[ex r2]|] eqn:Ex.
    + destruct (boundary r2) eqn:Eb; [|discriminate].
      apply exponent_sound in Ex. destruct Ex as [Hex ->]. intros [= <- <-].
      repeat split; auto; [apply (fl_frac_exp (f0 :: fs)); auto | now autorewrite with reassoc].
    + destruct (boundary r1) eqn:Eb; [|discriminate]. intros [= <- <-]. repeat split; auto. apply (fl_frac (f0 :: fs)); auto.
Qed.

Lemma floatlit_nonempty m : FloatLit m -> m <> [].
Proof.
  intros H. inversion H as [ip fs Hi|ip fs ex Hi|ip ex Hi| |]; subst; try discriminate;
    inversion Hi; discriminate.
Qed.

Lemma split_length (s m rest : str) : s = m ++ rest -> m <> [] -> length s = length m + length rest /\ 1 <= length m.
Proof. intros -> Hm. rewrite app_length. destruct m; [contradiction|simpl; lia]. Qed.

(* Induction for the three scanners.  Each is started with fuel = the length of its input, and a step either copies
   one character and goes on with fuel f, or consumes a matched non-empty prefix m and goes on with fuel
   f - (length m - 1): either way the fuel covers what is left, which is all the three proofs below need of it. *)
Lemma scanner_ind (P : nat -> str -> Prop) :
  (forall fuel, P fuel []) ->
  (forall f c r, P f r ->
     (forall m rest, c :: r = m ++ rest -> m <> [] -> P (f - (length m - 1)) rest) -> P (S f) (c :: r)) ->
  forall fuel s, length s <= fuel -> P fuel s.
Proof.
  intros Hnil Hcons. induction fuel as [fuel IH] using lt_wf_ind. intros [|c r] Hlen; [apply Hnil|].
  destruct fuel as [|f]; simpl in Hlen; [lia|]. apply Hcons.
  - apply IH; lia.
  - intros m rest Hs Hm. destruct (split_length _ _ _ Hs Hm) as [Hl H1]. simpl in Hl. apply IH; lia.
Qed.

(* pw: the previous character is a word character *)
Inductive Tagged (flag : str) : bool -> str -> str -> Prop :=
| tg_nil pw : Tagged flag pw [] []
| tg_keep pw c s o : Tagged flag (is_word c) s o -> Tagged flag pw (c :: s) (c :: o)
| tg_lit m rest o : FloatLit m -> boundary rest = true ->
                    Tagged flag (last_word m false) rest o -> Tagged flag false (m ++ rest) (m ++ flag ++ o).

Lemma tag_go_tagged flag : forall fuel s, length s <= fuel -> forall pw, Tagged flag pw s (tag_go fuel flag pw s).
Proof.
  apply (scanner_ind (fun fuel s => forall pw, Tagged flag pw s (tag_go fuel flag pw s))).
  - intros [|f] pw; constructor.
  - intros f c r IHkeep IHlit pw. cbn [tag_go]. destruct pw; [apply tg_keep, IHkeep|].
    destruct (match_float (c :: r)) as [[m rest]|] eqn:Em; [|apply tg_keep, IHkeep].
    apply match_float_sound in Em. destruct Em as (Hl & Hb & Hs). rewrite Hs.
    apply tg_lit; auto. apply IHlit; [exact Hs | exact (floatlit_nonempty m Hl)].
Qed.

Inductive InsertOnly (flag : str) : str -> str -> Prop :=
| io_nil : InsertOnly flag [] []
| io_keep c s o : InsertOnly flag s o -> InsertOnly flag (c :: s) (c :: o)
| io_ins s o : InsertOnly flag s o -> InsertOnly flag s (flag ++ o).

Lemma insert_only_app flag m s o : InsertOnly flag s o -> InsertOnly flag (m ++ s) (m ++ o).
Proof. induction m; simpl; auto. intros. apply io_keep. auto. Qed.

Lemma tagged_insert_only flag pw s o : Tagged flag pw s o -> InsertOnly flag s o.
Proof.
  induction 1.
  - constructor.
  - apply io_keep; auto.
  - apply insert_only_app. apply io_ins. auto.
Qed.

Lemma strip_prefix_sound p : forall s r, strip_prefix p s = Some r -> s = p ++ r.
Proof.
  induction p as [|a p IH]; simpl; intros s r H.
  - injection H as ->. reflexivity.
  - destruct s as [|b s']; [discriminate|]. destruct (Ascii.eqb_spec a b) as [->|]; [|discriminate].
    f_equal. auto.
Qed.

Definition VecSuffix (suf : str) : Prop := suf = [] \/ suf = ["2"] \/ suf = ["4"] \/ suf = ["8"] \/ suf = ["1"; "6"].

Lemma vec_suffix_sound s suf rest : vec_suffix s = Some (suf, rest) ->
  VecSuffix suf /\ boundary rest = true /\ s = suf ++ rest.
Proof.
  unfold vec_suffix, VecSuffix. destruct s as [|c r]; [intros [= <- <-]; auto|].
  destruct ((Ascii.eqb c "2" || Ascii.eqb c "4" || Ascii.eqb c "8") && boundary r) eqn:E1.
  - rewrite andb_true_iff, !orb_true_iff, !Ascii.eqb_eq in E1.
    destruct E1 as [[[->| ->]| ->] Eb]; intros [= <- <-]; auto 6.
  - destruct r as [|b r'].
    + destruct (boundary [c]) eqn:Eb; [|discriminate]. intros [= <- <-]. auto.
    + destruct (Ascii.eqb c "1" && Ascii.eqb b "6" && boundary r') eqn:E2.
      * rewrite !andb_true_iff, !Ascii.eqb_eq in E2. destruct E2 as [[-> ->] Eb]. intros [= <- <-]. auto 6.
      * destruct (boundary (c :: b :: r')) eqn:Eb; [|discriminate]. intros [= <- <-]. auto.
Qed.

Lemma try_double_sound pre0 s0 pre suf n rest :
  try_double pre0 s0 = Some (pre, suf, n, rest) ->
  pre = pre0 /\ VecSuffix suf /\ boundary rest = true /\ s0 = kw_double ++ suf ++ rest /\
  n = length (pre0 ++ kw_double ++ suf).
Proof.
  unfold try_double. destruct (strip_prefix kw_double s0) as [r|] eqn:Es; [|discriminate].
  destruct (vec_suffix r) as [[suf' rest']|] eqn:Ev; [|discriminate].
  intros [= <- <- <- <-]. apply strip_prefix_sound in Es. apply vec_suffix_sound in Ev.
  destruct Ev as (Hv & Hb & ->). repeat split; auto. rewrite !app_length. simpl. lia.
Qed.

(* match_double is try_double after an optional c *)
Theorem match_double_sound s pre suf n rest :
  match_double s = Some (pre, suf, n, rest) ->
  (pre = [] \/ pre = ["c"]) /\ VecSuffix suf /\ boundary rest = true /\
  s = pre ++ kw_double ++ suf ++ rest /\ n = length (pre ++ kw_double ++ suf).
Proof.
  intros H.
  assert (Ht : exists pre0 s0, (pre0 = [] \/ pre0 = ["c"]) /\ s = pre0 ++ s0 /\ try_double pre0 s0 = Some (pre, suf, n, rest)).
  { unfold match_double in H. destruct s as [|c r]; [discriminate|].
    destruct (Ascii.eqb_spec c "c") as [->|_]; [|exists [], (c :: r); auto].
    destruct (try_double ["c"] r) as [x|] eqn:E1.
    - injection H as ->. exists ["c"], r. auto.
    - exists [], ("c" :: r). auto. }
  destruct Ht as (pre0 & s0 & Hp & -> & Ht). apply try_double_sound in Ht.
  destruct Ht as (-> & Hv & Hb & -> & Hn). auto 6.
Qed.

Inductive Retyped (ty : str) : bool -> str -> str -> Prop :=
| rt_nil pw : Retyped ty pw [] []
| rt_keep pw c s o : Retyped ty (is_word c) s o -> Retyped ty pw (c :: s) (c :: o)
| rt_kw pre suf rest o : (pre = [] \/ pre = ["c"]) -> VecSuffix suf -> boundary rest = true ->
      Retyped ty true rest o ->
      Retyped ty false (pre ++ kw_double ++ suf ++ rest) (pre ++ ty ++ suf ++ o).

Lemma dbl_go_retyped ty : forall fuel s, length s <= fuel -> forall pw, Retyped ty pw s (dbl_go fuel ty pw s).
Proof.
  apply (scanner_ind (fun fuel s => forall pw, Retyped ty pw s (dbl_go fuel ty pw s))).
  - intros [|f] pw; constructor.
  - intros f c r IHkeep IHkw pw. cbn [dbl_go]. destruct pw; [apply rt_keep, IHkeep|].
    destruct (match_double (c :: r)) as [[[[pre suf] n] rest]|] eqn:Em; [|apply rt_keep, IHkeep].
    apply match_double_sound in Em. destruct Em as (Hp & Hv & Hb & Hs & ->). rewrite Hs.
    apply rt_kw; auto. apply IHkw.
    + now autorewrite with reassoc.
    + destruct pre; discriminate.
Qed.

Lemma int_lit_split s ip r : int_lit s = (ip, r) -> s = ip ++ r.
Proof.
  unfold int_lit. destruct s as [|d r']; [intros [= <- <-]; auto|].
  destruct (Ascii.eqb d "0"); [intros [= <- <-]; auto|].
  destruct (is_nz d); [|intros [= <- <-]; auto].
  destruct (span is_digit r') as [ds r2] eqn:Ed. apply span_spec in Ed. destruct Ed as [-> _]. intros [= <- <-]. reflexivity.
Qed.

Lemma match_tgmath_split s m rest : match_tgmath s = Some (m, rest) -> s = m ++ rest /\ m <> [].
Proof.
  unfold match_tgmath.
  destruct (span is_word s) as [w r0] eqn:E0. apply span_spec in E0. destruct E0 as [-> _].
  destruct (existsb (str_eqb w) tg_names) eqn:Ew; [|discriminate].
  destruct (span is_space r0) as [sp1 r1] eqn:E1. apply span_spec in E1. destruct E1 as [-> _].
  destruct r1 as [|p r2]; [discriminate|].
  destruct (Ascii.eqb p "(") eqn:Ep; [|discriminate].
  destruct (span is_space r2) as [sp2 r3] eqn:E2. apply span_spec in E2. destruct E2 as [-> _].
  destruct (opt_sign r3) as [sg r4] eqn:Es. apply opt_sign_spec in Es. destruct Es as [-> _].
  destruct (int_lit r4) as [ip r6] eqn:Ei. apply int_lit_split in Ei. subst r4.
  destruct ip as [|i0 ip]; [discriminate|].
  destruct (span is_space r6) as [sp3 r7] eqn:E3.
  destruct r7 as [|e r8]; [discriminate|].
  destruct (Ascii.eqb e "," || Ascii.eqb e ")"); [|discriminate].
  intros [= <- <-]. split.
  - now autorewrite with reassoc.
  - destruct w; simpl; [destruct sp1; discriminate | discriminate].
Qed.

Lemma tg_go_insert_only : forall fuel s, length s <= fuel -> forall pw, InsertOnly ["."] s (tg_go fuel pw s).
Proof.
  apply (scanner_ind (fun fuel s => forall pw, InsertOnly ["."] s (tg_go fuel pw s))).
  - intros [|f] pw; constructor.
  - intros f c r IHkeep IHcall pw. cbn [tg_go]. destruct pw; [apply io_keep, IHkeep|].
    destruct (match_tgmath (c :: r)) as [[m rest]|] eqn:Em; [|apply io_keep, IHkeep].
    apply match_tgmath_split in Em. destruct Em as [Hs Hne]. rewrite Hs.
    apply insert_only_app. apply (io_ins ["."]). apply IHcall; assumption.
Qed.
