(* The theorems about the scanners, down to C15_match_float_complete, are for ALL input strings: no lexer is
   assumed. *)
From Coq Require Import List Ascii.
Import ListNotations.
From SM Require Import Base.Tactics C15.Model C15.Proofs C15.Complete.

(* What the matcher accepts at a position is a prefix of the text there: a decimal floating literal of the grammar,
   immediately followed by a non-word character or the end of the input. *)
Theorem C15_match_float_sound : forall s m rest,
  match_float s = Some (m, rest) -> FloatLit m /\ boundary rest = true /\ s = m ++ rest.
Proof. exact match_float_sound. Qed.
Print Assumptions C15_match_float_sound.

(* The output of the tagger is the input with the suffix inserted, only after
   such literals, each starting the input or right after a non-word character: every other
   character of the source (identifiers, integers, strings, operators...) is
   unchanged and in place. *)
Theorem C15_tag_float_tagged : forall flag s, Tagged flag false s (tag_float flag s).
Proof. intros flag s. apply tag_go_tagged, le_n. Qed.
Print Assumptions C15_tag_float_tagged.

Theorem C15_tag_float_insert_only : forall flag s, InsertOnly flag s (tag_float flag s).
Proof. intros flag s. exact (tagged_insert_only _ _ _ _ (C15_tag_float_tagged flag s)). Qed.
Print Assumptions C15_tag_float_insert_only.

(* The keyword conversion only replaces the letters "double" by the type name,
   only where [c]double[2|4|8|16] stands between non-word characters or the ends
   of the input; prefix, vector size and everything else are kept. *)
Theorem C15_conv_double_retyped : forall ty s, Retyped ty false s (conv_double ty s).
Proof. intros ty s. apply dbl_go_retyped, le_n. Qed.
Print Assumptions C15_conv_double_retyped.

Theorem C15_fix_tgmath_insert_only : forall s, InsertOnly ["."%char] s (fix_tgmath s).
Proof. intros s. apply tg_go_insert_only, le_n. Qed.
Print Assumptions C15_fix_tgmath_insert_only.

(* A double-precision request performs the integer promotion and nothing else. *)
Theorem C15_double_untouched : forall s, body P64 s = fix_tgmath s.
Proof. reflexivity. Qed.
Print Assumptions C15_double_untouched.

(* The matcher recognises every literal of the grammar that is followed by a non-word character or the end of the
   input (with C15_match_float_sound: exactly those) ... *)
Theorem C15_match_float_complete : forall m t, FloatLit m -> boundary t = true -> match_float (m ++ t) = Some (m, t).
Proof. exact match_float_complete. Qed.
Print Assumptions C15_match_float_complete.

(* ... and for every stream of tokens - floating literals, integers, words (identifiers, keywords), punctuation
   characters incl. white space - in which a literal follows punctuation or starts the text and literals and
   integers are followed by punctuation or end the text, tagging the rendered text yields the same stream with
   every literal carrying the suffix and every other token unchanged.  The point is not punctuation and there are
   no string or comment tokens: text with a point outside a literal (a.b, s->x.y, ...) is outside this theorem. *)
Theorem C15_tag_float_tokens : forall flag ts, Forall wf_tok ts -> sep true ts = true ->
  tag_float flag (render ts) = render (map (tag_tok flag) ts).
Proof. intros flag ts. rewrite <- tagf_tag_float. apply (tokens_complete flag ts false true). reflexivity. Qed.
Print Assumptions C15_tag_float_tokens.

(* the premises are met by, e.g.,  x1 = 1.5e3*(y + .25) - 7;  *)
Example C15_tokens_example :
  let ts := [Word ["x";"1"]; Punct " "; Punct "="; Punct " "; Lit ["1";".";"5";"e";"3"]; Punct "*"; Punct "(";
             Word ["y"]; Punct " "; Punct "+"; Punct " "; Lit [".";"2";"5"]; Punct ")"; Punct " "; Punct "-"; Punct " ";
             Int ["7"]; Punct ";"]%char in
  sep true ts = true /\
  tag_float ["f"%char] (render ts) =
  ["x";"1";" ";"=";" ";"1";".";"5";"e";"3";"f";"*";"(";"y";" ";"+";" ";".";"2";"5";"f";")";" ";"-";" ";"7";";"]%char.
Proof. vm_compute. split; reflexivity. Qed.

(* "the result does not depend on the precision beyond rounding" presupposes that the caller and the converted
   source agree on the TYPE of what is passed by value (the weight cutoff): the parameter list of the kernel entry
   point (kernel_iq.c, every `double` becoming the real type of the precision) and the ctypes declaration of
   DllModel._load_dll, both read from the current text (Gen/C15_abi.v), agree argument by argument at every precision *)
From SM Require Import C15.Abi Gen.C15_abi.
Theorem C15_code_abi : abi_translated = true -> forall p, code_argtypes p = code_kernel_params p.
Proof. intros Ht. untranslated Ht. all: intros p; destruct p; reflexivity. Qed.
Print Assumptions C15_code_abi.
Theorem C15_code_cutoff_by_value : abi_translated = true -> forall p, In (KReal p) (code_kernel_params p) /\ forall q, In (KReal q) (code_argtypes p) -> q = p.
Proof.
  intros Ht. untranslated Ht.
  all: intros p; rewrite (C15_code_abi Ht); split; [destruct p; vm_compute; tauto|].
  (* for q <> p every member of the list differs from KReal q in a constructor *)
  all: intros q Hq; destruct p, q; try reflexivity; exfalso; vm_compute in Hq; intuition discriminate.
Qed.
Print Assumptions C15_code_cutoff_by_value.
