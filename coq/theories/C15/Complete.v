(* Completeness of match_float for the grammar FloatLit, and with it what tag_float does to a rendered token stream. *)
From Coq Require Import List Ascii Bool Lia.
Import ListNotations.
From SM Require Import C15.Model C15.Proofs.
Open Scope char_scope.

Lemma digit_word c : is_digit c = true -> is_word c = true.
Proof. intros H. unfold is_word. rewrite H. rewrite orb_true_r. reflexivity. Qed.
Lemma nonword_nondigit c : is_word c = false -> is_digit c = false.
Proof. intros Hw. destruct (is_digit c) eqn:E; [|reflexivity]. apply digit_word in E. congruence. Qed.
Lemma boundary_no_digit t : boundary t = true -> stops is_digit t.
Proof. destruct t as [|c r]; simpl; [auto|]. intros H. apply nonword_nondigit, negb_true_iff, H. Qed.

(* an exponent starts with a letter: not a digit, not a boundary, not a point *)
Lemma exponent_head ex t : Exponent ex ->
  stops is_digit (ex ++ t) /\ boundary (ex ++ t) = false /\ exists e r, ex ++ t = e :: r /\ Ascii.eqb e "." = false.
Proof. intros H; inversion H as [e ds [->| ->]|e sg ds [->| ->]]; subst; simpl; eauto 8. Qed.

Theorem match_float_complete m t : FloatLit m -> boundary t = true -> match_float (m ++ t) = Some (m, t).
Proof.
  intros H Hb. pose proof (boundary_no_digit t Hb) as Hn.
  inversion H as [ip fs Hi Hf | ip fs ex Hi Hf Hx | ip ex Hi Hx | fs Hne Hf | fs ex Hne Hf Hx]; subst;
    autorewrite with reassoc.
  - destruct (int_part_complete ip ("." :: fs ++ t) Hi eq_refl) as (c & r & -> & Hc & Hs).
    unfold match_float. rewrite Hc. change (if Ascii.eqb c "0" then _ else _) with (int_part c r). rewrite Hs.
    rewrite (span_app _ _ _ Hf Hn), Hb. reflexivity.
  - destruct (exponent_head ex t Hx) as (Hxd & Hxb & _).
    destruct (int_part_complete ip ("." :: fs ++ ex ++ t) Hi eq_refl) as (c & r & -> & Hc & Hs).
    unfold match_float. rewrite Hc. change (if Ascii.eqb c "0" then _ else _) with (int_part c r). rewrite Hs.
    rewrite (span_app _ _ _ Hf Hxd), Hxb, (exponent_complete ex t Hx Hn), Hb. reflexivity.
  - destruct (exponent_head ex t Hx) as (Hxd & _ & e & r' & Ee & Edot).
    destruct (int_part_complete ip (ex ++ t) Hi Hxd) as (c & r & -> & Hc & Hs).
    unfold match_float. rewrite Hc. change (if Ascii.eqb c "0" then _ else _) with (int_part c r). rewrite Hs.
    (* show the head of ex ++ t, so that the test for the point reduces, and fold it back for exponent_complete *)
    rewrite Ee, Edot, <- Ee, (exponent_complete ex t Hx Hn), Hb. reflexivity.
  - simpl. rewrite (span_app _ _ _ Hf Hn), Hb. destruct fs; [contradiction|].
    destruct (exponent t) as [[ex r2]|] eqn:Ex; [|reflexivity].
    apply exponent_sound in Ex. destruct Ex as [Hex ->]. destruct (exponent_head ex r2 Hex) as (_ & Hnb & _). congruence.
  - destruct (exponent_head ex t Hx) as (Hxd & _).
    simpl. rewrite (span_app _ _ _ Hf Hxd), (exponent_complete ex t Hx Hn), Hb. destruct fs; [contradiction|reflexivity].
Qed.

(* the scanner with fuel = length, which every step keeps: tagf_cons says what a step does without fuel *)
Definition tagf (flag : str) (pw : bool) (s : str) : str := tag_go (length s) flag pw s.

Lemma tagf_tag_float flag s : tagf flag false s = tag_float flag s.
Proof. reflexivity. Qed.

Lemma tagf_cons flag pw c r :
  tagf flag pw (c :: r) =
  match (if pw then None else match_float (c :: r)) with
  | Some (m, rest) => m ++ flag ++ tagf flag (last_word m false) rest
  | None => c :: tagf flag (is_word c) r
  end.
Proof.
  unfold tagf. cbn [length tag_go]. destruct pw; [reflexivity|].
  destruct (match_float (c :: r)) as [[m rest]|] eqn:E; [|reflexivity].
  apply match_float_sound in E. destruct E as (Hm & _ & Hs).
  destruct (split_length _ _ _ Hs (floatlit_nonempty m Hm)) as [Hl H1]. simpl in Hl.
  replace (length r - (length m - 1)) with (length rest) by lia. reflexivity.
Qed.

Lemma tagf_nomatch flag pw c s : match_float (c :: s) = None -> tagf flag pw (c :: s) = c :: tagf flag (is_word c) s.
Proof. intros H. rewrite tagf_cons, H. destruct pw; reflexivity. Qed.

Lemma tagf_literal flag m t : FloatLit m -> boundary t = true ->
  tagf flag false (m ++ t) = m ++ flag ++ tagf flag (last_word m false) t.
Proof.
  intros Hm Hb. pose proof (match_float_complete m t Hm Hb) as E.
  destruct m as [|c m']; [destruct (floatlit_nonempty _ Hm eq_refl)|].
  cbn [app] in *. rewrite tagf_cons, E. reflexivity.
Qed.

Lemma tagf_word_tail flag t : forall u, Forall (fun x => is_word x = true) u -> tagf flag true (u ++ t) = u ++ tagf flag true t.
Proof. induction 1 as [|x u Hx _ IH]; [reflexivity|]. cbn [app]. rewrite tagf_cons, Hx, IH. reflexivity. Qed.
Lemma tagf_word flag pw c u t : match_float (c :: u ++ t) = None -> Forall (fun x => is_word x = true) (c :: u) ->
  tagf flag pw ((c :: u) ++ t) = (c :: u) ++ tagf flag true t.
Proof.
  intros Hm Hw. inversion Hw as [|? ? Hc Hu]; subst. cbn [app].
  rewrite (tagf_nomatch _ _ _ _ Hm), Hc, (tagf_word_tail _ _ _ Hu). reflexivity.
Qed.

Lemma match_float_other c s : is_digit c = false -> c <> "." -> match_float (c :: s) = None.
Proof. intros Hd Hp. unfold match_float. rewrite Hd, (proj2 (Ascii.eqb_neq c ".") Hp). reflexivity. Qed.

(* what may follow an integer or a literal (a point would continue it) *)
Definition punct_head (t : str) : Prop := match t with [] => True | c :: _ => is_word c = false /\ c <> "." end.
Lemma punct_head_boundary t : punct_head t -> boundary t = true.
Proof. destruct t; simpl; [reflexivity|]. intros [-> _]. reflexivity. Qed.

Lemma floatlit_mark m : FloatLit m ->
  exists ds x r, m = ds ++ x :: r /\ digits ds /\ is_digit x = false /\ (is_word x = true \/ x = ".").
Proof.
  assert (Hip : forall ip, IntPart ip -> digits ip) by (intros ip H; inversion H; repeat constructor; auto).
  assert (Hex : forall ex, Exponent ex -> exists e r, ex = e :: r /\ is_digit e = false /\ is_word e = true).
  { intros ex H. inversion H as [e ds [->| ->]|e sg ds [->| ->]]; eauto. }
  intros H. inversion H as [ip fs Hi Hf | ip fs ex Hi Hf Hx | ip ex Hi Hx | fs Hne Hf | fs ex Hne Hf Hx]; subst.
  - exists ip, ".", fs. auto.
  - exists ip, ".", (fs ++ ex). auto.
  - destruct (Hex ex Hx) as (e & r & -> & He & Hw). exists ip, e, r. auto.
  - exists [], ".", fs. repeat split; auto. constructor.
  - exists [], ".", (fs ++ ex). repeat split; auto. constructor.
Qed.

(* the first character after the leading digits would have to be both the mark of a literal (floatlit_mark) and
   punctuation *)
Lemma match_float_int d t : digits d -> punct_head t -> match_float (d ++ t) = None.
Proof.
  intros Hd Ht. destruct (match_float (d ++ t)) as [[m rest]|] eqn:E; [exfalso|reflexivity].
  apply match_float_sound in E. destruct E as (Hl & _ & Hs).
  destruct (floatlit_mark m Hl) as (ds & x & r & -> & Hds & Hx & Hw).
  pose proof (span_app _ d t Hd (boundary_no_digit t (punct_head_boundary t Ht))) as Hsp.
  rewrite Hs in Hsp. autorewrite with reassoc in Hsp. rewrite (span_app _ ds (x :: r ++ rest) Hds Hx) in Hsp.
  injection Hsp as <- <-. destruct Ht as [Hy Hdot]. destruct Hw; congruence.
Qed.

(* C text as a stream of tokens; white space is Punct, the point is not (wf_tok) *)
Inductive tok := Lit (m : str) | Int (d : str) | Word (w : str) | Punct (c : ascii).
Definition tok_str (t : tok) : str := match t with Lit m => m | Int d => d | Word w => w | Punct c => [c] end.
Fixpoint render (ts : list tok) : str := match ts with [] => [] | t :: r => tok_str t ++ render r end.
Definition tag_tok (flag : str) (t : tok) : tok := match t with Lit m => Lit (m ++ flag) | x => x end.

Definition wf_tok (t : tok) : Prop :=
  match t with
  | Lit m => FloatLit m
  | Int d => d <> [] /\ digits d
  | Word w => exists c r, w = c :: r /\ is_word c = true /\ is_digit c = false /\ Forall (fun x => is_word x = true) r
  | Punct c => is_word c = false /\ c <> "."
  end.
Definition next_punct (ts : list tok) : bool := match ts with [] => true | Punct _ :: _ => true | _ => false end.
(* ap = "at the start or just after punctuation" *)
Fixpoint sep (ap : bool) (ts : list tok) : bool :=
  match ts with
  | [] => true
  | Punct _ :: r => sep true r
  | Word _ :: r => sep false r
  | Int _ :: r => next_punct r && sep false r
  | Lit _ :: r => ap && next_punct r && sep false r
  end.

Lemma next_punct_head ts : Forall wf_tok ts -> next_punct ts = true -> punct_head (render ts).
Proof.
  destruct ts as [|[m|d|w|c] r]; simpl; try discriminate; auto.
  intros H _. inversion H as [|? ? Hc _]; subst. exact Hc.
Qed.

Lemma render_map_lit flag m r : render (map (tag_tok flag) (Lit m :: r)) = (m ++ flag) ++ render (map (tag_tok flag) r).
Proof. reflexivity. Qed.

Theorem tokens_complete flag : forall ts pw ap,
  (ap = true -> pw = false) -> Forall wf_tok ts -> sep ap ts = true ->
  tagf flag pw (render ts) = render (map (tag_tok flag) ts).
Proof.
  induction ts as [|t r IH]; intros pw ap Hap Hwf Hsep; [reflexivity|].
  inversion Hwf as [|? ? Ht Hr]; subst. destruct t as [m|d|w|c]; cbn [sep] in Hsep; cbn [render map tag_tok tok_str].
  - rewrite !andb_true_iff in Hsep. destruct Hsep as [[Ha Hnp] Hs2]. rewrite (Hap Ha).
    rewrite (tagf_literal flag m _ Ht (punct_head_boundary _ (next_punct_head r Hr Hnp))).
    rewrite (IH _ false) by (auto; discriminate). now autorewrite with reassoc.
  - apply andb_true_iff in Hsep. destruct Hsep as [Hnp Hs2]. destruct Ht as [Hne Hd].
    destruct d as [|c ds]; [contradiction|].
    rewrite tagf_word.
    + rewrite (IH _ false) by (auto; discriminate). reflexivity.
    + apply (match_float_int (c :: ds)); auto. apply next_punct_head; auto.
    + revert Hd. apply Forall_impl. exact digit_word.
  - destruct Ht as (c & w' & -> & Hw & Hd & Hws).
    rewrite tagf_word.
    + rewrite (IH _ false) by (auto; discriminate). reflexivity.
    + apply match_float_other; auto. intros ->. discriminate.
    + auto.
  - destruct Ht as [Hw Hd]. cbn [app].
    rewrite tagf_nomatch by (apply match_float_other; auto using nonword_nondigit).
    rewrite Hw, (IH _ true) by auto. reflexivity.
Qed.
