(* C01/Details.v — details.make_details: which parameters get a dispersity loop.  The selection is the max_pd longest
   in descending order ([desc]), where the active ones (more than one point) form a prefix ([active_in_prefix]): none
   is cut while at most max_pd are active. *)
From Coq Require Import List Arith Bool Lia Permutation.
Import ListNotations.
From SM Require Import C01.Model.

Definition act (x : nat * nat) : bool := 1 <? snd x.
Fixpoint count {A} (f : A -> bool) (l : list A) : nat :=
  match l with [] => 0 | x :: r => (if f x then 1 else 0) + count f r end.

Lemma count_filter {A} (f : A -> bool) l : count f l = length (filter f l).
Proof. induction l as [|x r IH]; simpl; [reflexivity|]. destruct (f x); simpl; lia. Qed.

Fixpoint desc (l : list (nat * nat)) : Prop :=
  match l with [] => True | x :: r => (forall y, In y r -> snd y <= snd x) /\ desc r end.

Lemma insert_desc_perm x l : Permutation (insert_desc x l) (x :: l).
Proof.
  induction l as [|y r IH]; simpl; [apply Permutation_refl|].
  destruct (snd y <? snd x); [apply Permutation_refl|].
  destruct ((snd y =? snd x) && (fst y <? fst x)); [apply Permutation_refl|].
  eapply Permutation_trans; [apply perm_skip; exact IH|apply perm_swap].
Qed.

Lemma sort_desc_perm l : Permutation (sort_desc l) l.
Proof.
  induction l as [|x r IH]; simpl; [apply Permutation_refl|].
  eapply Permutation_trans; [apply insert_desc_perm|apply perm_skip; exact IH].
Qed.

Lemma desc_cons x y r : snd y <= snd x -> desc (y :: r) -> desc (x :: y :: r).
Proof.
  intros Hyx Hd. split; [|exact Hd]. destruct Hd as [Hy _].
  intros z [<-|Hz]; [exact Hyx | specialize (Hy z Hz); lia].
Qed.

Lemma insert_desc_desc x l : desc l -> desc (insert_desc x l).
Proof.
  induction l as [|y r IH]; intros Hd; simpl.
  - split; [intros z []|exact I].
  - destruct (Nat.ltb_spec (snd y) (snd x)) as [Hlt|Hge]; [apply desc_cons; [lia | exact Hd]|].
    destruct ((snd y =? snd x) && (fst y <? fst x)) eqn:Etie.
    + apply andb_true_iff in Etie. destruct Etie as [Etie _]. apply Nat.eqb_eq in Etie.
      apply desc_cons; [lia | exact Hd].
    + destruct Hd as [Hy Hr]. split; [|apply IH; exact Hr].
      intros z Hz. apply (Permutation_in _ (insert_desc_perm x r)) in Hz.
      destruct Hz as [<-|Hz]; [exact Hge | apply Hy; exact Hz].
Qed.

Lemma sort_desc_desc l : desc (sort_desc l).
Proof. induction l as [|x r IH]; simpl; [exact I|apply insert_desc_desc; exact IH]. Qed.

Lemma count_perm {A} (f : A -> bool) l l' : Permutation l l' -> count f l = count f l'.
Proof. induction 1; simpl; lia. Qed.

Lemma active_in_prefix : forall l k, desc l -> count act l <= k ->
  forall x, In x l -> act x = true -> In x (firstn k l).
Proof.
  induction l as [|y r IH]; intros k Hd Hc x Hin Hx; [destruct Hin|].
  destruct Hd as [Hy Hr].
  (* the head is x or at least as long as x, so it is active and takes one of the k places *)
  assert (Ey : act y = true).
  { destruct Hin as [<-|Hin]; [exact Hx|].
    unfold act in *. apply Nat.ltb_lt in Hx. apply Nat.ltb_lt. specialize (Hy x Hin). lia. }
  cbn [count] in Hc. rewrite Ey in Hc. destruct k as [|k]; [lia|].
  destruct Hin as [<-|Hin]; [left; reflexivity|right]. apply IH; auto. lia.
Qed.

Lemma map_snd_combine_seq : forall (lens : list nat) s, map snd (combine (seq s (length lens)) lens) = lens.
Proof. induction lens as [|x r IH]; intros s; simpl; [reflexivity|]. now rewrite IH. Qed.

Lemma count_map {A B} (f : B -> bool) (g : A -> B) l : count f (map g l) = count (fun x => f (g x)) l.
Proof. induction l as [|x r IH]; simpl; [reflexivity|]. rewrite IH. reflexivity. Qed.

Lemma count_act_combine (lens : list nat) s : count act (combine (seq s (length lens)) lens) = num_active lens.
Proof.
  unfold num_active, act. rewrite <- count_filter, <- (count_map (fun n => 1 <? n) snd), map_snd_combine_seq. reflexivity.
Qed.

Lemma in_combine_seq (lens : list nat) s i : i < length lens -> In (s + i, nth i lens 0) (combine (seq s (length lens)) lens).
Proof.
  intros Hi. rewrite <- (seq_nth s 0 Hi), <- combine_nth by apply seq_length.
  apply nth_In. rewrite combine_length, seq_length. lia.
Qed.
