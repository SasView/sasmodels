(* C01/Proofs.v — the sweep of the C loop nest as the property's sum over the full mesh: Base.Sums at the reals, and the
   weight product the nest forms against the product in table order. *)
From Coq Require Import List Permutation Reals.
From SM Require Import Base.Num Base.Lists Base.Mesh Base.Sums C01.Model.

Lemma table_dims_nodup lens : NoDup (map fst (table_dims lens)).
Proof. unfold table_dims. rewrite map_fst_combine by apply seq_length. apply seq_NoDup. Qed.

(* [box_is_mesh_sum] at (R, 0, +), for a summand [h] given as the loop writes it *)
Lemma sweep_is_mesh_sum ks ns triv dims (f : env -> R) e (h : nat -> R) :
  (forall t, h t = f (bind ks (decode ns t) e)) ->
  length ks = length ns -> Forall (fun n => 0 < n) ns ->
  NoDup (map fst dims) -> Permutation dims (triv ++ rev (combine ks ns)) ->
  Forall (fun d => snd d = 1 /\ e (fst d) = 0) triv -> fext R f ->
  fold_left (fun a t => (a + h t)%R) (seq 0 (prod ns)) 0%R = nsum R 0%R Rplus dims f e.
Proof.
  intros Hh Hlen Hpos Hnd Hperm Htriv Hf.
  rewrite (fold_seq_bsum R 0%R Rplus), Rplus_0_l by (intros; ring).
  rewrite (bsum_ext R 0%R Rplus _ h (fun t => f (bind ks (decode ns t) e))) by (intros; apply Hh).
  apply box_is_mesh_sum with triv; auto; intros; ring.
Qed.

Section Real.
  Open Scope R_scope.
  Variables (cutoff : R) (wt : nat -> nat -> R) (leaf_at : env -> Leaf (T:=R)).
  Hypothesis leaf_ext : forall e e', (forall x, e x = e' x) -> leaf_at e = leaf_at e'.

  (* [wprod ps (map e ps)]: the product of the weights of the parameters ps, each at the index e gives it.  The product
     in table order and the product the nest forms are both of this form; so the one is the other permuted. *)
  Lemma wprod_table_map lens : forall p e,
    wprod_table ROps wt p lens e = wprod ROps wt (seq p (length lens)) (map e (seq p (length lens))).
  Proof. induction lens as [|n r IH]; intros p e; simpl; auto. rewrite IH. reflexivity. Qed.

  Lemma wprod_perm ps ps' (e : env) : Permutation ps ps' -> wprod ROps wt ps (map e ps) = wprod ROps wt ps' (map e ps').
  Proof.
    induction 1 as [| p l l' _ IH | p p' l | l l' l'' _ IH1 _ IH2]; simpl; auto.
    - rewrite IH; auto.
    - ring.
    - congruence.
  Qed.

  Lemma wprod_app ps ps' (e : env) :
    wprod ROps wt (ps ++ ps') (map e (ps ++ ps')) = wprod ROps wt ps (map e ps) * wprod ROps wt ps' (map e ps').
  Proof. induction ps as [|p ps IH]; simpl; [ring|]. rewrite IH; ring. Qed.

  Lemma wprod_ones ps (e : env) : Forall (fun p => wt p (e p) = 1) ps -> wprod ROps wt ps (map e ps) = 1.
  Proof. induction 1 as [|p ps Hp _ IH]; simpl; [reflexivity|]. rewrite Hp, IH. ring. Qed.

  Lemma wprod_table_slots ks ns lens triv idx :
    length ks = length ns -> NoDup ks -> length idx = length ks ->
    Permutation (table_dims lens) (triv ++ rev (combine ks ns)) ->
    Forall (fun d => snd d = 1%nat /\ wt (fst d) 0 = 1 /\ ~ In (fst d) ks) triv ->
    wprod_table ROps wt 0 lens (bind ks idx e0) = wprod ROps wt ks idx.
  Proof.
    intros Hlen Hnd Hidx Hperm Htriv. apply (Permutation_map fst) in Hperm. unfold table_dims in Hperm.
    rewrite map_app, map_rev, !map_fst_combine in Hperm by (auto using seq_length).
    rewrite wprod_table_map, (wprod_perm _ _ _ Hperm), wprod_app, wprod_ones.
    - rewrite <- (wprod_perm _ _ _ (Permutation_rev ks)), bind_slots by auto. ring.
    - (* a parameter without a slot is at index 0, where its weight is 1 *)
      apply Forall_map. eapply Forall_impl; [|exact Htriv]. intros d [_ [Hw Hni]].
      rewrite bind_notin by exact Hni. exact Hw.
  Qed.

  Lemma fext_spec_term lens c : fext R (spec_term ROps cutoff wt leaf_at lens c).
  Proof.
    intros e e' H. unfold spec_term. rewrite (leaf_ext e e' H), !wprod_table_map, (map_ext e e' H). reflexivity.
  Qed.
End Real.
