From Coq Require Import List Arith Permutation Reals Lia.
Import ListNotations.
From SM Require Import Base.Tactics Base.Num Base.Lists Base.Mesh Base.Sums C01.Model C01.Proofs C01.Details C01.Translated.
From SM Require Import Gen.C01_code Gen.C01_details Gen.C01_loop.

(* The value does not depend on how the mesh is split across successive kernel
   invocations, nor on what the result buffer held before: for every carrier
   (IEEE binary64 included), every consecutive partition of [0,N). *)
Theorem C01_chunk_independent :
  forall (T : Type) (O : Ops T) cutoff ks ns wt (leaf_at : env -> Leaf (T:=T)) c parts prev,
  Forall (fun n => 0 < n) ns -> covers 0 (prod ns) parts ->
  loop_component O cutoff ks ns wt leaf_at c parts prev =
  steps T (body O cutoff ks wt leaf_at c) ns 0 (prod ns) (zero O).
Proof. intros. apply run_chunks_independent; assumption. Qed.
Print Assumptions C01_chunk_independent.

(* ... in particular for the 100-step driver of kerneldll (any step size > 0) *)
Theorem C01_dll_driver :
  forall (T : Type) (O : Ops T) cutoff ks ns wt (leaf_at : env -> Leaf (T:=T)) c prev size,
  0 < size -> Forall (fun n => 0 < n) ns ->
  loop_component O cutoff ks ns wt leaf_at c (chunks (prod ns) size) prev =
  steps T (body O cutoff ks wt leaf_at c) ns 0 (prod ns) (zero O).
Proof. intros. apply C01_chunk_independent; auto using chunks_cover. Qed.
Print Assumptions C01_dll_driver.

(* Every accumulated component (sum w, sum w V_form, sum w V_shell, sum w R_eff,
   sum w F^2(q_j), sum w F(q_j)) equals the sum over every point of the full
   mesh, in table order, of the qualifying contributions - whatever admissible
   slot assignment make_details picked and however the run was chunked.
   [triv]: the parameters without a slot.  The formula multiplies every parameter's weight, the C nest only those of
   the slots: each of [triv] has one point, of weight 1 (as direct_model.py and weights.py give it when not dispersed). *)
Theorem C01_loop_is_mesh_sum :
  forall cutoff wt (leaf_at : env -> Leaf (T:=R)),
  (forall e e', (forall x, e x = e' x) -> leaf_at e = leaf_at e') ->
  forall ks ns lens triv c parts prev,
  length ks = length ns -> Forall (fun n => 0 < n) ns -> NoDup ks ->
  Permutation (table_dims lens) (triv ++ rev (combine ks ns)) ->
  Forall (fun d => snd d = 1 /\ wt (fst d) 0 = 1%R /\ ~ In (fst d) ks) triv ->
  covers 0 (prod ns) parts ->
  loop_component ROps cutoff ks ns wt leaf_at c parts prev =
  nsum R 0%R Rplus (table_dims lens) (spec_term ROps cutoff wt leaf_at lens c) e0.
Proof.
  intros cutoff wt leaf_at leaf_ext ks ns lens triv c parts prev Hlen Hpos Hnd Hperm Htriv Hcov.
  rewrite C01_chunk_independent by assumption. unfold steps, body. cbn [zero add ROps].
  apply (sweep_is_mesh_sum ks ns triv); auto using table_dims_nodup, fext_spec_term.
  - intros t. unfold spec_term. f_equal. symmetry.
    apply wprod_table_slots with ns triv; auto. rewrite decode_length. auto.
  - eapply Forall_impl; [|exact Htriv]. intros [p n] [H1 _]. split; auto.
Qed.
Print Assumptions C01_loop_is_mesh_sum.

(* the executable specification used by the correspondence check is that sum *)
Theorem C01_spec_is_mesh_sum :
  forall cutoff wt (leaf_at : env -> Leaf (T:=R)),
  (forall e e', (forall x, e x = e' x) -> leaf_at e = leaf_at e') ->
  forall lens c, Forall (fun n => 0 < n) lens ->
  spec_component ROps cutoff wt leaf_at lens c =
  nsum R 0%R Rplus (table_dims lens) (spec_term ROps cutoff wt leaf_at lens c) e0.
Proof.
  intros cutoff wt leaf_at leaf_ext lens c Hpos. unfold spec_component. cbn [add zero ROps].
  apply (sweep_is_mesh_sum (rev (seq 0 (length lens))) (rev lens) []); auto using table_dims_nodup, fext_spec_term, Forall_rev.
  - rewrite !rev_length. apply seq_length.
  - simpl. rewrite <- rev_combine, rev_involutive by apply seq_length. apply Permutation_refl.
Qed.
Print Assumptions C01_spec_is_mesh_sum.

(* I_j = scale * sum(w F^2_j) / sum(w V_shell) + background *)
Theorem C01_intensity :
  forall scale bg (s : Sums (T:=R)) j, s_norm s <> 0%R -> s_shell s <> 0%R ->
  nth j (intensity ROps scale bg s) 0%R =
  if j <? length (s_f2 s) then (scale * nth j (s_f2 s) 0 / s_shell s + bg)%R else 0%R.
Proof.
  intros scale bg s j Hn Hs. unfold intensity, normalise. cbn [eqb ROps zero one div add mul o_shell o_f2].
  destruct (Reqb_spec (s_norm s) 0); [contradiction|].
  assert (Hq : (s_shell s / s_norm s)%R <> 0%R).
  { unfold Rdiv. apply Rmult_integral_contrapositive_currified; auto. apply Rinv_neq_0_compat; auto. }
  destruct (Reqb_spec (s_shell s / s_norm s) 0); [contradiction|].
  rewrite map_map. destruct (Nat.ltb_spec j (length (s_f2 s))) as [Hlt|Hge].
  - rewrite (nth_map_lt _ _ _ _ 0%R) by auto. field. split; auto.
  - apply nth_overflow. rewrite map_length. auto.
Qed.
Print Assumptions C01_intensity.

(* a mesh with no qualifying point accumulates nothing ("no point" is asked of every environment [e], on the mesh or
   not: that is the form [nsum_zero] takes) ... *)
Theorem C01_empty_sums :
  forall cutoff wt (leaf_at : env -> Leaf (T:=R)) lens c,
  (forall e, let lf := leaf_at e in
     lvalid lf = false \/ ~ (cutoff < lproj lf * wprod_table ROps wt 0 lens e)%R) ->
  nsum R 0%R Rplus (table_dims lens) (spec_term ROps cutoff wt leaf_at lens c) e0 = 0%R.
Proof.
  intros cutoff wt leaf_at lens c Hq. apply nsum_zero; [apply Rplus_0_l|]. intros e. unfold spec_term, term.
  destruct (Hq e) as [Hv|Hc]; cbn zeta in *; [rewrite Hv; reflexivity|].
  destruct (lvalid (leaf_at e)); auto. cbn [ltb mul ROps zero].
  destruct (Rltb_spec cutoff (lproj (leaf_at e) * wprod_table ROps wt 0 lens e)); [contradiction|reflexivity].
Qed.
Print Assumptions C01_empty_sums.

(* ... and then the intensity is the background *)
Theorem C01_empty_background :
  forall scale bg (s : Sums (T:=R)) j,
  s_norm s = 0%R -> s_shell s = 0%R -> Forall (fun x => x = 0%R) (s_f2 s) ->
  j < length (s_f2 s) -> nth j (intensity ROps scale bg s) 0%R = bg.
Proof.
  intros scale bg s j Hn Hs Hz Hj. unfold intensity, normalise. cbn [eqb ROps zero one div add mul o_shell o_f2].
  rewrite Hn, Hs, Reqb_refl. replace (0 / 1)%R with 0%R by field. rewrite Reqb_refl.
  rewrite map_map, (nth_map_lt _ _ _ _ 0%R) by auto.
  rewrite Forall_forall in Hz. rewrite (Hz (nth j (s_f2 s) 0%R)) by (apply nth_In; auto). field.
Qed.
Print Assumptions C01_empty_background.

(* The normalisation as it is WRITTEN in kernel.py: Gen/C01_code.v is regenerated on every run from the text of
   Kernel.Fq and Kernel.Iq (Python-ast translation); what it holds is the model's for every number type (no premise:
   Base/Tactics.v), so what is proved of [intensity] above holds of it. *)
Theorem C01_code_normalisation : forall (T : Type) (O : Ops T) scale bg (s : Sums (T:=T)),
  code_normalise O s = normalise O s /\ code_intensity O scale bg s = intensity O scale bg s.
Proof. intros. split; [apply code_normalise_is_model | apply code_intensity_is_model]. Qed.
Print Assumptions C01_code_normalisation.

Theorem C01_code_intensity :
  forall scale bg (s : Sums (T:=R)) j, s_norm s <> 0%R -> s_shell s <> 0%R ->
  nth j (code_intensity ROps scale bg s) 0%R =
  if j <? length (s_f2 s) then (scale * nth j (s_f2 s) 0 / s_shell s + bg)%R else 0%R.
Proof. intros. rewrite code_intensity_is_model. apply C01_intensity; assumption. Qed.
Print Assumptions C01_code_intensity.

(* "asking for more simultaneously dispersed parameters than the model supports is refused with an error instead of
   being truncated": make_details refuses exactly when more than max_pd distributions have more than one point, and
   when it accepts, EVERY such distribution has a loop slot carrying its own length - for every table of lengths *)
Theorem C01_refused_iff_too_many : forall max_pd lens, make_details max_pd lens = TooMany <-> max_pd < num_active lens.
Proof.
  intros max_pd lens. unfold make_details.
  destruct (Nat.ltb_spec max_pd (num_active lens)) as [Hlt|Hge].
  - split; auto.
  - split; [discriminate|lia].
Qed.
Print Assumptions C01_refused_iff_too_many.
Theorem C01_never_truncated : forall max_pd lens ks ns, make_details max_pd lens = Slots ks ns ->
  forall i, i < length lens -> 1 < nth i lens 0 -> In (i, nth i lens 0) (combine ks ns).
Proof.
  intros max_pd lens ks ns. unfold make_details.
  destruct (Nat.ltb_spec max_pd (num_active lens)) as [|E]; [discriminate|].
  intros H i Hi Hact. inversion H; subst ks ns; clear H.
  rewrite combine_fst_snd. apply active_in_prefix.
  - apply sort_desc_desc.
  - rewrite (count_perm act _ _ (sort_desc_perm _)), count_act_combine. exact E.
  - apply (Permutation_in _ (Permutation_sym (sort_desc_perm _))). exact (in_combine_seq lens 0 i Hi).
  - apply Nat.ltb_lt. exact Hact.
Qed.
Print Assumptions C01_never_truncated.
(* ... and that is what the CODE does: count and refusal test are translated from the current text of
   details.make_details; the selection line, idx = np.argsort(length)[::-1][:max_pd], is matched as text and written
   as the model's [sort_desc] *)
Theorem C01_code_make_details : details_translated = true -> forall max_pd lens,
  (if code_refuses max_pd lens then TooMany
   else Slots (map fst (code_selection max_pd lens)) (map snd (code_selection max_pd lens))) = make_details max_pd lens.
Proof. intros Ht. untranslated Ht. all: reflexivity. Qed.
Print Assumptions C01_code_make_details.

(* the skeleton of the loop nest of kernel_iq.c, read from the current text on every run: levels n-1 .. 0 are
   initialised and opened in that order and closed in reverse.  That the macro bodies are [decode], [incr] and
   [wprod] is not stated: the generator compares them with their expected text *)
Theorem C01_code_loop_nest : loop_translated = true ->
  code_open_order = rev (seq 0 (length code_open_order)) /\
  code_close_order = rev code_open_order /\
  code_init_order = code_open_order.
Proof. intros Ht. untranslated Ht. all: repeat split; reflexivity. Qed.
Print Assumptions C01_code_loop_nest.
