(* Base/Sums.v — finite sums over a commutative monoid, nested sums keyed by
   parameter number, and their invariance under reordering of the loops
   (finite Fubini).  Axiom-free. *)
From Coq Require Import List Arith Lia Permutation.
Import ListNotations.
From SM Require Import Base.Mesh.

Section Sums.
  Variable M : Type.
  Variable mzero : M.
  Variable madd : M -> M -> M.
  Hypothesis madd_comm : forall a b, madd a b = madd b a.
  Hypothesis madd_assoc : forall a b c, madd a (madd b c) = madd (madd a b) c.
  Hypothesis madd_0_l : forall a, madd mzero a = a.

  Lemma madd_0_r a : madd a mzero = a.
  Proof. rewrite madd_comm. apply madd_0_l. Qed.

  Fixpoint bsum (n : nat) (f : nat -> M) : M :=
    match n with 0 => mzero | S k => madd (bsum k f) (f k) end.

  Lemma bsum_ext n f g : (forall i, i < n -> f i = g i) -> bsum n f = bsum n g.
  Proof. induction n as [|n IH]; simpl; intros H; auto. rewrite IH, H by auto. reflexivity. Qed.

  Lemma bsum_zero n : bsum n (fun _ => mzero) = mzero.
  Proof. induction n as [|n IH]; simpl; auto. rewrite IH. apply madd_0_l. Qed.

  Lemma madd_interchange a b c d : madd (madd a b) (madd c d) = madd (madd a c) (madd b d).
  Proof.
    rewrite <- !madd_assoc. f_equal.
    rewrite !madd_assoc, (madd_comm b c). reflexivity.
  Qed.

  Lemma bsum_add n f g : bsum n (fun i => madd (f i) (g i)) = madd (bsum n f) (bsum n g).
  Proof.
    induction n as [|n IH]; simpl. { symmetry; apply madd_0_l. }
    rewrite IH. apply madd_interchange.
  Qed.

  Lemma bsum_swap n m (f : nat -> nat -> M) :
    bsum n (fun i => bsum m (fun j => f i j)) = bsum m (fun j => bsum n (fun i => f i j)).
  Proof.
    induction n as [|n IH]; simpl. { symmetry; apply bsum_zero. }
    rewrite IH. symmetry. apply bsum_add.
  Qed.

  Lemma fold_seq_bsum (h : nat -> M) n acc :
    fold_left (fun a t => madd a (h t)) (seq 0 n) acc = madd acc (bsum n h).
  Proof.
    induction n as [|n IH]. { symmetry; apply madd_0_r. }
    rewrite seq_S, fold_left_app, IH. symmetry; apply madd_assoc.
  Qed.

  Lemma bsum_split n m h : bsum (n + m) h = madd (bsum n h) (bsum m (fun j => h (n + j))).
  Proof.
    induction m as [|m IH]. { rewrite Nat.add_0_r. symmetry; apply madd_0_r. }
    rewrite Nat.add_succ_r. simpl. rewrite IH. symmetry; apply madd_assoc.
  Qed.

  Lemma bsum_mul n m h :
    bsum (n * m) h = bsum m (fun j => bsum n (fun i => h (i + n * j))).
  Proof.
    induction m as [|m IH]. { rewrite Nat.mul_0_r. reflexivity. }
    replace (n * S m) with (n * m + n) by lia. rewrite bsum_split, IH. simpl.
    f_equal. apply bsum_ext. intros. f_equal. lia.
  Qed.

  (* sum over the index box in slot order (slot 0 innermost) *)
  Fixpoint boxsum (ns : list nat) (g : list nat -> M) : M :=
    match ns with
    | [] => g []
    | n :: r => boxsum r (fun ir => bsum n (fun i => g (i :: ir)))
    end.

  Lemma boxsum_ext ns g g' : (forall idx, g idx = g' idx) -> boxsum ns g = boxsum ns g'.
  Proof.
    revert g g'. induction ns as [|n ns IH]; simpl; intros; auto.
    apply IH. intros. apply bsum_ext. auto.
  Qed.

  Lemma flat_is_box ns : Forall (fun n => 0 < n) ns -> forall g,
    bsum (prod ns) (fun s => g (decode ns s)) = boxsum ns g.
  Proof.
    induction 1 as [|n r Hn Hr IH]; intros g.
    - apply madd_0_l.
    - cbn [prod decode boxsum]. rewrite bsum_mul, <- IH.
      apply bsum_ext. intros j _. apply bsum_ext. intros i Hi.
      destruct (divmod_unique (i + n * j) n j i) as [-> ->]; [assumption | lia | reflexivity].
  Qed.

  (* An environment gives every parameter its index.  [fext f]: f reads its environment pointwise; a hypothesis
     wherever two environments are only pointwise equal, since no extensionality axiom is used. *)
  Definition env := nat -> nat.
  Definition upd (e : env) (k v : nat) : env := fun x => if x =? k then v else e x.
  Definition fext (f : env -> M) := forall e e', (forall x, e x = e' x) -> f e = f e'.

  (* first dimension outermost: the sum as the property writes it *)
  Fixpoint nsum (dims : list (nat * nat)) (f : env -> M) (e : env) : M :=
    match dims with
    | [] => f e
    | (k, n) :: ds => bsum n (fun i => nsum ds f (upd e k i))
    end.

  Lemma nsum_env_ext dims f : fext f -> forall e e', (forall x, e x = e' x) ->
    nsum dims f e = nsum dims f e'.
  Proof.
    intros Hf. induction dims as [|[k n] ds IH]; simpl; intros e e' H; auto.
    apply bsum_ext. intros. apply IH. intros x. unfold upd. destruct (x =? k); auto.
  Qed.

  (* the last dimension is the innermost sum: the order in which the C loops nest *)
  Lemma nsum_snoc ds k n f : forall e,
    nsum (ds ++ [(k, n)]) f e = nsum ds (fun e' => bsum n (fun i => f (upd e' k i))) e.
  Proof.
    induction ds as [|[k' n'] ds IH]; intros e; simpl; [reflexivity|]. apply bsum_ext. intros. apply IH.
  Qed.

  Lemma nsum_zero dims f : (forall e, f e = mzero) -> forall e, nsum dims f e = mzero.
  Proof.
    intros Hf. induction dims as [|[k n] ds IH]; intros e; simpl; [apply Hf|].
    rewrite (bsum_ext n _ (fun _ => mzero)) by (intros; apply IH). apply bsum_zero.
  Qed.

  Lemma upd_comm e k1 k2 i j x : k1 <> k2 ->
    upd (upd e k1 i) k2 j x = upd (upd e k2 j) k1 i x.
  Proof.
    unfold upd. intros. destruct (Nat.eqb_spec x k2), (Nat.eqb_spec x k1); auto. lia.
  Qed.

  Theorem nsum_perm dims dims' f : Permutation dims dims' -> NoDup (map fst dims) ->
    fext f -> forall e, nsum dims f e = nsum dims' f e.
  Proof.
    intros Hp. induction Hp as [| [k n] l l' Hp IH | [k1 n1] [k2 n2] l | l l' l'' H1 IH1 H2 IH2];
      intros Hnd Hf e.
    - reflexivity.
    - inversion Hnd; subst. apply bsum_ext. intros. apply IH; auto.
    - simpl in *. inversion Hnd as [|? ? Hnotin Hnd']; subst.
      assert (k2 <> k1) by (intros ->; apply Hnotin; left; reflexivity).
      rewrite bsum_swap. apply bsum_ext; intros i Hi. apply bsum_ext; intros j Hj.
      apply nsum_env_ext; auto. intros x. apply upd_comm; auto.
    - rewrite IH1 by auto. apply IH2; auto.
      eapply Permutation_NoDup; [apply Permutation_map; exact H1 | exact Hnd].
  Qed.

  Lemma nsum_one k ds f e : fext f -> e k = 0 -> nsum ((k, 1) :: ds) f e = nsum ds f e.
  Proof.
    intros Hf Hk. simpl. rewrite madd_0_l. apply nsum_env_ext; auto.
    intros x. unfold upd. destruct (Nat.eqb_spec x k); subst; auto.
  Qed.

  Lemma nsum_drop_trivial triv ds f e : fext f ->
    Forall (fun d => snd d = 1 /\ e (fst d) = 0) triv ->
    nsum (triv ++ ds) f e = nsum ds f e.
  Proof.
    intros Hf. induction 1 as [|[k n] t [Hn Hk] _ IH]; cbn [app fst snd] in *; [reflexivity|].
    subst n. rewrite <- IH. apply nsum_one; assumption.
  Qed.

  (* slot j of the loop nest drives parameter ks[j] (pd_par in kernel_iq.c): the environment at slot indices [idx] *)
  Fixpoint bind (ks idx : list nat) (e : env) : env :=
    match ks, idx with
    | k :: ks', i :: idx' => upd (bind ks' idx' e) k i
    | _, _ => e
    end.

  Lemma bind_notin ks : forall idx e p, ~ In p ks -> bind ks idx e p = e p.
  Proof.
    induction ks as [|k ks IH]; intros [|i idx] e p Hn; simpl; auto.
    unfold upd. destruct (Nat.eqb_spec p k); [subst; exfalso; apply Hn; left; auto|].
    apply IH. intros H; apply Hn; right; auto.
  Qed.

  (* read back at its own slots, [bind] gives the indices *)
  Lemma bind_slots ks : forall idx e, NoDup ks -> length idx = length ks -> map (bind ks idx e) ks = idx.
  Proof.
    induction ks as [|k ks IH]; intros [|i idx] e Hnd Hl; simpl in *; try lia; auto.
    inversion Hnd as [|? ? Hnotin Hnd']; subst. unfold upd at 1. rewrite Nat.eqb_refl. f_equal.
    rewrite <- (IH idx e) at 2 by (auto; lia). apply map_ext_in. intros p Hp.
    unfold upd. destruct (Nat.eqb_spec p k); [subst; contradiction | reflexivity].
  Qed.

  Lemma box_is_nsum ks : forall ns f e, length ks = length ns ->
    boxsum ns (fun idx => f (bind ks idx e)) = nsum (rev (combine ks ns)) f e.
  Proof.
    induction ks as [|k ks IH]; intros [|n ns] f e Hlen; simpl in *; try lia; auto.
    rewrite nsum_snoc. apply (IH ns (fun e' => bsum n (fun i => f (upd e' k i))) e). lia.
  Qed.

  (* the loop nest over the slots is the sum over the full parameter mesh in table order [dims]; [triv]: the
     dimensions without a slot, each of length 1 and at index 0 in [e]; [rev]: slot 0 is the innermost loop, the first
     dimension of [nsum] the outermost sum *)
  Theorem box_is_mesh_sum ks ns triv dims f e :
    length ks = length ns -> Forall (fun n => 0 < n) ns ->
    NoDup (map fst dims) -> Permutation dims (triv ++ rev (combine ks ns)) ->
    Forall (fun d => snd d = 1 /\ e (fst d) = 0) triv -> fext f ->
    bsum (prod ns) (fun s => f (bind ks (decode ns s) e)) = nsum dims f e.
  Proof.
    intros Hlen Hpos Hnd Hperm Htriv Hf.
    rewrite (flat_is_box ns Hpos (fun idx => f (bind ks idx e))), box_is_nsum by auto.
    rewrite (nsum_perm _ _ f Hperm Hnd Hf e). symmetry. apply nsum_drop_trivial; auto.
  Qed.
End Sums.
