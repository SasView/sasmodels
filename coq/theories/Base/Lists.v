(* Base/Lists.v — list facts that the standard library of 8.16 lacks.  Two shapes come
   from sasmodels: a vector laid out as consecutive segments (product.py and mixture.py both cut a combined value
   vector this way), and a property kept by every step of a fold (every "for all schedules / histories"). *)
From Coq Require Import List Arith Bool Lia Permutation.
From Coq Require String.
Import ListNotations.

Lemma nth_map_lt {A B} (f : A -> B) l j d d' : j < length l -> nth j (map f l) d = f (nth j l d').
Proof. revert j; induction l as [|a l IH]; intros [|j] H; simpl in *; try lia; auto. apply IH; lia. Qed.

Lemma map_fst_combine {A B} (a : list A) : forall (b : list B), length a = length b -> map fst (combine a b) = a.
Proof. induction a as [|x a IH]; intros [|y b] H; simpl in *; try lia; auto. rewrite IH by lia. reflexivity. Qed.

Lemma combine_snoc {A B} (a : list A) : forall (b : list B) x y, length a = length b ->
  combine (a ++ [x]) (b ++ [y]) = combine a b ++ [(x, y)].
Proof. induction a as [|x0 a IH]; intros [|y0 b] x y H; simpl in *; try lia; auto. rewrite IH by lia. reflexivity. Qed.

Lemma rev_combine {A B} (a : list A) : forall (b : list B), length a = length b ->
  rev (combine a b) = combine (rev a) (rev b).
Proof.
  induction a as [|x a IH]; intros [|y b] H; simpl in *; try lia; auto.
  rewrite IH, combine_snoc by (rewrite ?rev_length; lia). reflexivity.
Qed.

Lemma combine_fst_snd {A B} (l : list (A * B)) : combine (map fst l) (map snd l) = l.
Proof. induction l as [|[a b] l IH]; simpl; [reflexivity|]. rewrite IH. reflexivity. Qed.

Section Slices.
  Context {A : Type}.

  (* start of segment k: the total length of the segments before it *)
  Fixpoint offset (segs : list (list A)) (k : nat) : nat :=
    match k, segs with
    | S k', s :: r => length s + offset r k'
    | _, _ => 0
    end.

  (* the indices enter by equations: a caller's index expression equals the offset only after arithmetic *)
  Theorem slice_concat (segs : list (list A)) k i j :
    i = offset segs k -> j = i + length (nth k segs []) ->
    firstn (j - i) (skipn i (concat segs)) = nth k segs [].
  Proof.
    intros -> ->. rewrite Nat.add_comm, Nat.add_sub. revert k.
    induction segs as [|s r IH]; intros [|k]; simpl; trivial.
    - rewrite firstn_app, firstn_all, Nat.sub_diag. apply app_nil_r.
    - rewrite skipn_app, skipn_all2, Nat.add_comm, Nat.add_sub by lia. apply IH.
  Qed.

  Theorem nth_concat (segs : list (list A)) k i x r d :
    i = offset segs k -> nth k segs [] = x :: r -> nth i (concat segs) d = x.
  Proof.
    intros ->. revert k. induction segs as [|s t IH]; intros [|k] H; try discriminate H; simpl in *.
    - rewrite H. reflexivity.
    - rewrite app_nth2, Nat.add_comm, Nat.add_sub by lia. apply IH, H.
  Qed.
End Slices.

Lemma fold_left_inv_in {S E} (P : S -> Prop) (f : S -> E -> S) l :
  (forall s e, In e l -> P s -> P (f s e)) -> forall s, P s -> P (fold_left f l s).
Proof.
  induction l as [|e l IH]; cbn; intros Hf s Hs; [exact Hs|].
  apply IH; [intros s' e' He'; apply Hf; right; exact He' | apply Hf; [left; reflexivity | exact Hs]].
Qed.

Lemma fold_left_inv {S E} (P : S -> Prop) (f : S -> E -> S) :
  (forall s e, P s -> P (f s e)) -> forall l s, P s -> P (fold_left f l s).
Proof. intros Hf l. apply fold_left_inv_in. intros s e _. apply Hf. Qed.

(* [m] returns an upper bound of its two arguments: max for <=, min for >= (the default-grid limits of C03, the
   longest wavelength of C19) *)
Section FoldBound.
  Context {A : Type} (le : A -> A -> Prop) (m : A -> A -> A).
  Hypothesis le_refl : forall a, le a a.
  Hypothesis le_trans : forall a b c, le a b -> le b c -> le a c.
  Hypothesis m_ub : forall a b, le a (m a b) /\ le b (m a b).

  Lemma fold_left_ub l : forall a x, x = a \/ In x l -> le x (fold_left m l a).
  Proof.
    induction l as [|z l IH]; intros a x H; simpl.
    - destruct H as [->|[]]. apply le_refl.
    - (* a and z are below the new head [m a z], which is below the fold *)
      assert (Hm : le (m a z) (fold_left m l (m a z))) by (apply IH; left; reflexivity).
      destruct H as [->|[<-|H]].
      + apply le_trans with (m a z); [apply (proj1 (m_ub a z)) | exact Hm].
      + apply le_trans with (m a z); [apply (proj2 (m_ub a z)) | exact Hm].
      + apply IH. right. exact H.
  Qed.
End FoldBound.

Lemma fold_left_perm {A} (f : A -> A -> A) : (forall a x y, f (f a x) y = f (f a y) x) ->
  forall l l', Permutation l l' -> forall a, fold_left f l a = fold_left f l' a.
Proof.
  intros Hf l l' Hp. induction Hp as [|x l l' _ IH|x y l|l l' l'' _ IH1 _ IH2]; intros a; simpl; trivial.
  - rewrite Hf. reflexivity.
  - rewrite IH1. apply IH2.
Qed.

Lemma NoDup_app {A} (l l' : list A) : NoDup l -> NoDup l' -> (forall x, In x l -> ~ In x l') -> NoDup (l ++ l').
Proof.
  intros Hl Hl' Hd. induction Hl as [|x l Hx Hl IH]; simpl; trivial. constructor.
  - rewrite in_app_iff. intros [H|H]; [auto | apply (Hd x); simpl; auto].
  - apply IH. intros y Hy. apply Hd. simpl; auto.
Qed.

Lemma NoDup_map_inj_in {A B} (f : A -> B) l :
  (forall x y, In x l -> In y l -> f x = f y -> x = y) -> NoDup l -> NoDup (map f l).
Proof.
  intros Hf Hl. induction Hl as [|x l Hx Hl IH]; simpl; constructor.
  - intros Hin. apply in_map_iff in Hin. destruct Hin as [y [E Hy]]. apply Hx. rewrite (Hf x y); simpl; auto.
  - apply IH. intros y z Hy Hz. apply Hf; simpl; auto.
Qed.

Lemma NoDup_list_prod {A B} (l : list A) (l' : list B) : NoDup l -> NoDup l' -> NoDup (list_prod l l').
Proof.
  intros Hl Hl'. induction Hl as [|x l Hx Hl IH]; simpl; [constructor|]. apply NoDup_app; trivial.
  - apply NoDup_map_inj_in; trivial. intros y z _ _ E. injection E. trivial.
  - intros [a b] H1 H2. apply in_map_iff in H1. destruct H1 as [y [E _]]. injection E as <- _.
    apply in_prod_iff in H2. tauto.
Qed.

Lemma NoDup_map_filter {A B} (f : A -> B) (p : A -> bool) l : NoDup (map f l) -> NoDup (map f (filter p l)).
Proof.
  induction l as [|x l IH]; simpl; intros H; [constructor|].
  inversion H as [|? ? Hni Hnd]; subst. destruct (p x); simpl; [|exact (IH Hnd)].
  constructor; [|exact (IH Hnd)]. intros Hin. apply Hni. exact (incl_map f (incl_filter p l) (f x) Hin).
Qed.

Lemma length_append (a b : String.string) :
  String.length (String.append a b) = String.length a + String.length b.
Proof. induction a as [|c a IH]; simpl; [|rewrite IH]; reflexivity. Qed.

Lemma existsb_false {A} (f : A -> bool) l : existsb f l = false <-> forall x, In x l -> f x = false.
Proof.
  rewrite <- not_true_iff_false, existsb_exists. split.
  - intros H x Hx. apply not_true_is_false. intros E. apply H. exists x. auto.
  - intros H [x [Hx E]]. rewrite (H x Hx) in E. discriminate.
Qed.

Lemma existsb_eqb_In (x : String.string) l : existsb (String.eqb x) l = true <-> In x l.
Proof.
  rewrite existsb_exists. split.
  - intros [y [Hy E]]. apply String.eqb_eq in E. subst. exact Hy.
  - intros H. exists x. split; [exact H | apply String.eqb_refl].
Qed.

(* NoDup on a list of names, as a test that can be run on a table *)
Fixpoint nodupb (l : list String.string) : bool :=
  match l with [] => true | x :: r => negb (existsb (String.eqb x) r) && nodupb r end.

Lemma nodupb_NoDup l : nodupb l = true -> NoDup l.
Proof.
  induction l as [|x r IH]; simpl; intros H; [constructor|].
  apply andb_true_iff in H. destruct H as [H1 H2]. constructor; [|exact (IH H2)].
  intros Hin. apply existsb_eqb_In in Hin. rewrite Hin in H1. discriminate.
Qed.
