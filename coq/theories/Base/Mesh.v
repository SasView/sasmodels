(* Base/Mesh.v — the restartable nested loop of kernel_iq.c as an odometer.
   Generic in the accumulator type [St]: nothing here needs arithmetic on it, so the
   results hold for IEEE binary64 accumulators exactly as for reals.
   Slot 0 is the innermost loop (stride 1), as in details.make_details. *)
From Coq Require Import List Arith Lia.
Import ListNotations.

Fixpoint prod (ns : list nat) : nat :=
  match ns with [] => 1 | n :: r => n * prod r end.

(* i_k = (s / stride_k) mod n_k, stride_k = n_0*...*n_{k-1}   (PD_INIT) *)
Fixpoint decode (ns : list nat) (s : nat) : list nat :=
  match ns with
  | [] => []
  | n :: r => (s mod n) :: decode r (s / n)
  end.

(* ++i_k; if (i_k == n_k) { i_k = 0; carry to the next loop }   (PD_CLOSE)
   None = the outermost loop ran off its end (or the two lists differ in length). *)
Fixpoint incr (ns idx : list nat) : option (list nat) :=
  match ns, idx with
  | n :: r, i :: ir =>
      if S i <? n then Some (S i :: ir)
      else match incr r ir with
           | Some ir' => Some (0 :: ir')
           | None => None
           end
  | _, _ => None
  end.

Section Loop.
  Variable St : Type.
  Variable body : list nat -> St -> St.

  (* The C control flow: run the body, ++step, leave every loop when
     step >= pd_stop, else advance the odometer.  [fuel] bounds the recursion, one unit per body: from
     fuel >= stop - step > 0 the branch [0 => st] is not reached. *)
  Fixpoint cloop (fuel : nat) (ns idx : list nat) (step stop : nat) (st : St) : St :=
    match fuel with
    | 0 => st
    | S f =>
        let st' := body idx st in
        let step' := S step in
        if stop <=? step' then st'
        else match incr ns idx with
             | Some idx' => cloop f ns idx' step' stop st'
             | None => st'
             end
    end.

  (* one kernel invocation: <model>_Iq(pd_start, pd_stop) on a given state.
     [reset] is the zeroing performed when pd_start == 0.
     For stop <= start the fuel is 0 and no body runs, whereas the C text would run the body once before it tests
     step >= pd_stop: such a call is outside the model.  kerneldll never makes one and [covers] excludes it (a < m). *)
  Variable reset : St -> St.
  Definition invoke (ns : list nat) (start stop : nat) (st : St) : St :=
    let st0 := if start =? 0 then reset st else st in
    cloop (stop - start) ns (decode ns start) start stop st0.

  Definition run_chunks (ns : list nat) (parts : list (nat * nat)) (st : St) : St :=
    fold_left (fun s p => invoke ns (fst p) (snd p) s) parts st.

  Definition steps (ns : list nat) (a k : nat) (st : St) : St :=
    fold_left (fun s t => body (decode ns t) s) (seq a k) st.
End Loop.

(* kerneldll: for start in range(0, num_eval, step); fuel [total] is enough when size > 0 *)
Fixpoint chunks_from (fuel start total size : nat) : list (nat * nat) :=
  match fuel with
  | 0 => []
  | S f => if total <=? start then []
           else (start, Nat.min (start + size) total) :: chunks_from f (start + size) total size
  end.
Definition chunks (total size : nat) : list (nat * nat) := chunks_from total 0 total size.

Lemma prod_pos ns : Forall (fun n => 0 < n) ns -> 0 < prod ns.
Proof. induction 1; simpl; nia. Qed.

Lemma decode_length ns s : length (decode ns s) = length ns.
Proof. revert s; induction ns; simpl; intros; auto. Qed.

Lemma divmod_unique a n q r : r < n -> a = n * q + r -> a / n = q /\ a mod n = r.
Proof.
  intros Hr Ha. split; symmetry; [apply (Nat.div_unique a n q r) | apply (Nat.mod_unique a n q r)]; assumption.
Qed.

(* one digit of the odometer: the next step either advances it or wraps it and carries *)
Lemma succ_nowrap s n : S (s mod n) < n -> S s / n = s / n /\ S s mod n = S (s mod n).
Proof. intros H. apply divmod_unique; [assumption|]. pose proof (Nat.div_mod s n). lia. Qed.

Lemma succ_wrap s n : 0 < n -> n <= S (s mod n) -> S s / n = S (s / n) /\ S s mod n = 0.
Proof.
  intros Hn H. apply divmod_unique; [assumption|].
  pose proof (Nat.div_mod s n). pose proof (Nat.mod_upper_bound s n). lia.
Qed.

Lemma incr_decode ns : Forall (fun n => 0 < n) ns -> forall s,
  S s < prod ns -> incr ns (decode ns s) = Some (decode ns (S s)).
Proof.
  induction 1 as [|n r Hn Hr IH]; intros s Hs; cbn [decode incr prod] in *; [lia|].
  destruct (Nat.ltb_spec (S (s mod n)) n) as [Hlt|Hge].
  - destruct (succ_nowrap s n Hlt) as [-> ->]. reflexivity.
  - destruct (succ_wrap s n Hn Hge) as [Hd ->]. rewrite Hd, IH; [reflexivity|].
    rewrite <- Hd. apply Nat.div_lt_upper_bound; lia.
Qed.

Section LoopFacts.
  Variable St : Type.
  Variable body : list nat -> St -> St.
  Variable reset : St -> St.

  Lemma steps_app ns a k1 k2 st :
    steps St body ns a (k1 + k2) st = steps St body ns (a + k1) k2 (steps St body ns a k1 st).
  Proof. unfold steps. rewrite seq_app, fold_left_app. reflexivity. Qed.

  Lemma steps_S ns a k st :
    steps St body ns a (S k) st = body (decode ns (a + k)) (steps St body ns a k st).
  Proof. unfold steps. rewrite seq_S, fold_left_app. reflexivity. Qed.

  Lemma cloop_steps ns : Forall (fun n => 0 < n) ns -> forall k start st,
    start + k <= prod ns ->
    cloop St body k ns (decode ns start) start (start + k) st = steps St body ns start k st.
  Proof.
    intros Hns. induction k as [|k IH]; intros start st Hb; [reflexivity|].
    cbn [cloop]. destruct (Nat.leb_spec (start + S k) (S start)) as [Hle|Hgt].
    - assert (k = 0) by lia. subst k. reflexivity.
    - rewrite incr_decode by (auto; lia).
      replace (start + S k) with (S start + k) by lia.
      rewrite IH by lia. reflexivity.
  Qed.

  Lemma invoke_steps ns start stop st : Forall (fun n => 0 < n) ns ->
    start < stop -> stop <= prod ns ->
    invoke St body reset ns start stop st =
    steps St body ns start (stop - start) (if start =? 0 then reset st else st).
  Proof.
    intros Hns Hlt Hle. unfold invoke.
    replace stop with (start + (stop - start)) at 2 by lia.
    apply cloop_steps; auto; lia.
  Qed.

  (* consecutive, non-empty parts covering [a, b) *)
  Inductive covers : nat -> nat -> list (nat * nat) -> Prop :=
  | cov_nil a : covers a a []
  | cov_cons a m b parts : a < m -> covers m b parts -> covers a b ((a, m) :: parts).

  Lemma covers_le a b parts : covers a b parts -> a <= b.
  Proof. induction 1; lia. Qed.

  (* [reset] acts only in a first part that starts at 0: every later part starts above 0 *)
  Lemma run_chunks_steps ns : Forall (fun n => 0 < n) ns -> forall a b parts, covers a b parts ->
    b <= prod ns -> forall st,
    run_chunks St body reset ns parts st =
    steps St body ns a (b - a) (match parts with [] => st | _ => if a =? 0 then reset st else st end).
  Proof.
    intros Hns. induction 1 as [a|a m b parts Hlt Hcov IH]; intros Hb st.
    - rewrite Nat.sub_diag. reflexivity.
    - pose proof (covers_le _ _ _ Hcov). unfold run_chunks in *. cbn [fold_left fst snd].
      rewrite IH, invoke_steps by (auto; lia).
      replace (b - a) with ((m - a) + (b - m)) by lia. rewrite steps_app.
      replace (a + (m - a)) with m by lia.
      destruct parts; [reflexivity|]. destruct (Nat.eqb_spec m 0); [lia|reflexivity].
  Qed.

  Theorem run_chunks_independent ns parts st : Forall (fun n => 0 < n) ns ->
    covers 0 (prod ns) parts ->
    run_chunks St body reset ns parts st = steps St body ns 0 (prod ns) (reset st).
  Proof.
    intros Hns Hc. rewrite (run_chunks_steps ns Hns _ _ _ Hc) by lia. rewrite Nat.sub_0_r.
    destruct parts; [|reflexivity]. pose proof (prod_pos _ Hns). inversion Hc. lia.
  Qed.
End LoopFacts.

(* [min]: for start >= total the list is empty and covers [total, total) *)
Lemma chunks_from_covers size : 0 < size -> forall fuel start total,
  total - start <= fuel -> covers (Nat.min start total) total (chunks_from fuel start total size).
Proof.
  intros Hs. induction fuel as [|f IH]; intros start total Hf; cbn [chunks_from].
  - replace (Nat.min start total) with total by lia. constructor.
  - destruct (Nat.leb_spec total start).
    + replace (Nat.min start total) with total by lia. constructor.
    + replace (Nat.min start total) with start by lia. constructor; [lia|]. apply IH. lia.
Qed.

Lemma chunks_cover total size : 0 < size -> covers 0 total (chunks total size).
Proof. intros Hs. apply (chunks_from_covers size Hs total 0 total). lia. Qed.
