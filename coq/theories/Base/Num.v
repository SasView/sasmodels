(* Base/Num.v — number carriers.
   One record of operations, over which the executable numerical models are written.
   It is instantiated at R (theorems) and at PrimFloat binary64 (execution by
   vm_compute for the correspondence checks).  No proofs about rounding. *)
From Coq Require Import Reals List Bool PrimFloat.
Import ListNotations.

Record Ops (T : Type) := MkOps {
  zero : T; one : T;
  add : T -> T -> T; sub : T -> T -> T; mul : T -> T -> T; div : T -> T -> T;
  opp : T -> T; absv : T -> T;
  ltb : T -> T -> bool; leb : T -> T -> bool; eqb : T -> T -> bool
}.
Arguments zero {T}. Arguments one {T}. Arguments add {T}. Arguments sub {T}.
Arguments mul {T}. Arguments div {T}. Arguments opp {T}. Arguments absv {T}.
Arguments ltb {T}. Arguments leb {T}. Arguments eqb {T}.

Definition FOps : Ops float := {|
  zero := 0%float; one := 1%float;
  add := PrimFloat.add; sub := PrimFloat.sub; mul := PrimFloat.mul; div := PrimFloat.div;
  opp := PrimFloat.opp; absv := PrimFloat.abs;
  ltb := PrimFloat.ltb; leb := PrimFloat.leb; eqb := PrimFloat.eqb |}.

Definition Rltb (x y : R) : bool := if Rlt_dec x y then true else false.
Definition Rleb (x y : R) : bool := if Rle_dec x y then true else false.
Definition Reqb (x y : R) : bool := if Req_EM_T x y then true else false.
Definition ROps : Ops R := {|
  zero := 0%R; one := 1%R;
  add := Rplus; sub := Rminus; mul := Rmult; div := Rdiv;
  opp := Ropp; absv := Rabs;
  ltb := Rltb; leb := Rleb; eqb := Reqb |}.

Lemma Rltb_true x y : Rltb x y = true <-> (x < y)%R.
Proof. unfold Rltb; destruct (Rlt_dec x y); split; intros; auto; try discriminate; contradiction. Qed.
Lemma Rleb_true x y : Rleb x y = true <-> (x <= y)%R.
Proof. unfold Rleb; destruct (Rle_dec x y); split; intros; auto; try discriminate; contradiction. Qed.
Lemma Reqb_true x y : Reqb x y = true <-> x = y.
Proof. unfold Reqb; destruct (Req_EM_T x y); split; intros; auto; try discriminate; contradiction. Qed.

Lemma Rltb_spec x y : BoolSpec (x < y)%R (y <= x)%R (Rltb x y).
Proof. unfold Rltb. destruct (Rlt_dec x y); constructor; [assumption | apply Rnot_lt_le; assumption]. Qed.
Lemma Reqb_spec x y : reflect (x = y) (Reqb x y).
Proof. unfold Reqb. destruct (Req_EM_T x y); constructor; assumption. Qed.
Lemma Reqb_refl x : Reqb x x = true.
Proof. apply Reqb_true. reflexivity. Qed.

Lemma fold_left_Rplus l : fold_left Rplus l 0%R = fold_right Rplus 0%R l.
Proof. exact (fold_symmetric Rplus (fun x y z => eq_sym (Rplus_assoc x y z)) 0%R (fun y => Rplus_comm 0 y) l). Qed.

Definition fmax (a b : float) : float := if PrimFloat.ltb a b then b else a.
Definition is_nanb (x : float) : bool := negb (PrimFloat.eqb x x).
(* |x-y| <= rel*scale + abs_tol ; NaN on either side fails unless both NaN *)
Definition closeb (rel abs_tol scale x y : float) : bool :=
  if is_nanb x then is_nanb y else
  if PrimFloat.eqb x y then true else
  PrimFloat.leb (PrimFloat.abs (PrimFloat.sub x y))
                (PrimFloat.add (PrimFloat.mul rel scale) abs_tol).
Fixpoint all_close (rel abs_tol : float) (sc xs ys : list float) : bool :=
  match sc, xs, ys with
  | [], [], [] => true
  | s :: sc', x :: xs', y :: ys' => closeb rel abs_tol s x y && all_close rel abs_tol sc' xs' ys'
  | _, _, _ => false
  end.

Fixpoint failing_from (i : nat) (l : list bool) : list nat :=
  match l with [] => [] | b :: r => if b then failing_from (S i) r else i :: failing_from (S i) r end.
Definition failing (l : list bool) : list nat := failing_from 0 l.
