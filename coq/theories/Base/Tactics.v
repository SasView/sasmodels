(* Base/Tactics.v — for the obligations [translated = true -> ...] about regenerated code.
   When a source cannot be translated its Gen/Cnn_*.v file says [translated = false] and holds placeholders; the
   obligation is then vacuous and [untranslated Ht] closes it from the false premise [Ht]; otherwise it does nothing
   ([try solve]).  Every later sentence of such a proof is written [all: ...], so the file builds either way
   (tools/test_untranslated.py forces every translator to fail in turn).
   The theorems about Gen/C01_code.v, C02_bodies.v, C05_code.v, C06_code.v and C10_code.v have no such premise: when
   the translator gives up, the harness writes the model itself into these files and the theorems hold trivially. *)
Ltac untranslated Ht := try solve [vm_compute in Ht; discriminate Ht].
