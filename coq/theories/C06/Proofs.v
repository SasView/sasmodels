From Coq Require Import List Reals Lra.
From SM Require Import Base.Num C06.Model.
Local Open Scope R_scope.

Notation v3R := (v3 (T:=R)).

Lemma orth_vec_perp (M q : v3R) : dot ROps q q <> 0 -> dot ROps (orth_vec ROps M q) q = 0.
Proof.
  intros H. destruct M as [a1 a2 a3], q as [b1 b2 b3].
  unfold orth_vec, dot in *. cbn [add mul sub div ROps x1 x2 x3] in *. field. exact H.
Qed.

Lemma orth_vec_unit_q (M q : v3R) : dot ROps q q = 1 ->
  orth_vec ROps M q = V (x1 M - dot ROps M q * x1 q) (x2 M - dot ROps M q * x2 q) (x3 M - dot ROps M q * x3 q).
Proof.
  intros H. unfold orth_vec. rewrite H. cbn [div sub mul ROps]. unfold Rdiv. rewrite Rinv_1. f_equal; ring.
Qed.

Definition clipR (x : R) : R := clip ROps x 0 1.
Lemma clip_range x : 0 <= clipR x <= 1.
Proof.
  unfold clipR, clip. cbn [ltb ROps]. destruct (Rltb_spec x 0); [lra|]. destruct (Rltb_spec 1 x); lra.
Qed.

Definition clean (w : list R) : Prop := forall xs, (xs < 6)%nat -> nth xs w 0 = 0 \/ 1e-8 < nth xs w 0.

(* one step of the per-q loop under [clean]: the threshold test never changes the sum *)
Lemma channel_step w (t : nat -> R) acc xs : clean w -> (xs < 6)%nat ->
  (if Rltb 1e-8 (nth xs w 0) then acc + nth xs w 0 * t xs else acc) = acc + nth xs w 0 * t xs.
Proof.
  intros Hc Hx. destruct (Hc xs Hx) as [H0|Hgt].
  - rewrite H0. destruct (Rltb 1e-8 0); ring.
  - destruct (Rltb_spec 1e-8 (nth xs w 0)); [reflexivity | lra].
Qed.

Lemma mag_sld_4_5 qx qy ct st cp sp (slds : list (R * v3R)) :
  map (fun sm => mag_sld ROps sqrt 4 qx qy ct st cp sp (fst sm) (snd sm)) slds =
  map Ropp (map (fun sm => mag_sld ROps sqrt 5 qx qy ct st cp sp (fst sm) (snd sm)) slds).
Proof. rewrite map_map. reflexivity. Qed.
