From Coq Require Import List Reals Lra Lia.
Import ListNotations.
From SM Require Import Base.Num Base.Lists C06.Model C06.Proofs Gen.C06_code C06.Translated.
Open Scope R_scope.

(* channel weights: (1-i)(1-f), (1-i)f, i(1-f), i f over max(f,1-f), for up-fractions clipped to [0,1] *)
Theorem C06_weights : forall i f,
  let ic := clipR i in let fc := clipR f in let n := Rmax fc (1 - fc) in
  spin_weights ROps (1/2) i f =
  [ (1 - ic) * (1 - fc) / n; (1 - ic) * fc / n; ic * (1 - fc) / n; ic * fc / n; (1 - ic) * fc / n; ic * (1 - fc) / n ].
Proof.
  intros i f ic fc n. unfold spin_weights. cbn [ltb sub mul div one zero ROps]. fold (clipR i) (clipR f) ic fc.
  (* the norm: 1 - f below one half, f from there on, is the larger of the two *)
  replace (if Rltb fc (1/2) then 1 - fc else fc) with n; [reflexivity|].
  unfold n. destruct (Rltb_spec fc (1/2)); [rewrite Rmax_right | rewrite Rmax_left]; lra.
Qed.
Print Assumptions C06_weights.

(* P, e1, e2 form an orthonormal frame for every polarisation direction *)
Theorem C06_frame : forall ct st cp sp, ct * ct + st * st = 1 -> cp * cp + sp * sp = 1 ->
  let P := Pvec ROps ct st cp sp in let e1 := perpy ROps ct st cp sp in let e2 := perpz ROps ct st cp sp in
  dot ROps P P = 1 /\ dot ROps e1 e1 = 1 /\ dot ROps e2 e2 = 1 /\
  dot ROps P e1 = 0 /\ dot ROps P e2 = 0 /\ dot ROps e1 e2 = 0.
Proof.
  intros ct st cp sp Ht Hp. unfold Pvec, perpy, perpz, dot. cbn [add mul sub opp zero ROps x1 x2 x3].
  (* polynomial identities modulo c^2 = 1 - s^2 for both angles *)
  assert (Ht' : ct * ct = 1 - st * st) by lra. assert (Hp' : cp * cp = 1 - sp * sp) by lra.
  repeat split; ring [Ht' Hp'].
Qed.
Print Assumptions C06_frame.

(* Mperp = M - qhat (qhat.M) is perpendicular to q *)
Theorem C06_mperp : forall (M q : v3 (T:=R)), dot ROps q q = 1 ->
  orth_vec ROps M q = V (x1 M - dot ROps M q * x1 q) (x2 M - dot ROps M q * x2 q) (x3 M - dot ROps M q * x3 q)
  /\ dot ROps (orth_vec ROps M q) q = 0.
Proof. intros M q H. split; [apply orth_vec_unit_q; auto | apply orth_vec_perp; rewrite H; apply R1_neq_R0]. Qed.
Print Assumptions C06_mperp.

(* the per-q loop is the weighted sum of the six cross-section terms, for every scattering function I of the SLDs and
   any number of magnetic SLDs - above the loop's q = 0 guard, and for weights that are exactly zero or above its 1e-8
   threshold ([clean], C06/Proofs.v): any other weight is skipped by the loop, and its term is then missing ... *)
Theorem C06_channel_sum : forall (I : list R -> R) qx qy ct st cp sp (slds : list (R * v3 (T:=R))) w,
  1e-16 < qx * qx + qy * qy -> clean w ->
  let eff xs := map (fun sm => mag_sld ROps sqrt xs qx qy ct st cp sp (fst sm) (snd sm)) slds in
  magnetic_F2 ROps sqrt 1e-8 1e-16 I w qx qy ct st cp sp slds =
  nth 0 w 0 * I (eff 0%nat) + nth 1 w 0 * I (eff 1%nat) + nth 2 w 0 * I (eff 2%nat) +
  nth 3 w 0 * I (eff 3%nat) + nth 4 w 0 * I (eff 4%nat) + nth 5 w 0 * I (eff 5%nat).
Proof.
  intros I qx qy ct st cp sp slds w Hq Hc eff. unfold magnetic_F2. cbn [ltb add mul zero ROps fold_left].
  rewrite (proj2 (Rltb_true _ _) Hq), !(channel_step w (fun xs => I (eff xs))) by (trivial; lia). ring.
Qed.
Print Assumptions C06_channel_sum.

(* ... and, for I even under reversal of all SLDs, it is
   w_dd I(rho - P.Mperp) + w_uu I(rho + P.Mperp) + (w_du + w_ud) [I(e1.Mperp) + I(e2.Mperp)] *)
Theorem C06_property_form : forall (I : list R -> R) qx qy ct st cp sp (slds : list (R * v3 (T:=R))),
  (forall l, I (map Ropp l) = I l) -> forall i f,
  1e-16 < qx * qx + qy * qy -> clean (spin_weights ROps (1/2) i f) ->
  let w := spin_weights ROps (1/2) i f in
  let eff xs := map (fun sm => mag_sld ROps sqrt xs qx qy ct st cp sp (fst sm) (snd sm)) slds in
  magnetic_F2 ROps sqrt 1e-8 1e-16 I w qx qy ct st cp sp slds =
  nth 0 w 0 * I (eff 0%nat) + nth 3 w 0 * I (eff 3%nat) +
  (nth 1 w 0 + nth 2 w 0) * (I (eff 1%nat) + I (eff 5%nat)).
Proof.
  intros I qx qy ct st cp sp slds I_even i f Hq Hc w eff. unfold w. rewrite C06_channel_sum by assumption. fold w. subst eff.
  (* by conversion ([change]): w is the literal list [dd; du; ud; uu; du; ud] of spin_weights, whose positions 4, 5 repeat
     1, 2, and cases 1, 2 of mag_sld are one term; channel 4 reads the SLDs of channel 5 with the sign reversed *)
  change (nth 4 w 0) with (nth 1 w 0). change (nth 5 w 0) with (nth 2 w 0).
  change (mag_sld ROps sqrt 2) with (mag_sld ROps sqrt 1). rewrite mag_sld_4_5, I_even. ring.
Qed.
Print Assumptions C06_property_form.

(* the flag details.convert_magnetism returns (np.any(M0 != 0); _call_kernel picks the magnetic or the plain kernel by
   it) is False exactly when every magnitude is zero; the choice of kernel itself is not modelled *)
Theorem C06_zero_M : forall l : list R, is_magnetic ROps l = false <-> Forall (fun m => m = 0) l.
Proof.
  intros l. unfold is_magnetic. rewrite existsb_false, Forall_forall. cbn [eqb zero ROps].
  split; intros H m Hm; specialize (H m Hm); destruct (Reqb_spec m 0); trivial; [discriminate | contradiction].
Qed.
Print Assumptions C06_zero_M.

(* The same statements about the TEXT of kernel_iq.c / kernel_header.c:
   Gen/C06_code.v is regenerated on every run from the current sources by harness/c06.py with harness/ctrans.py
   (set_spin_weights and mag_sld, with SET_VEC / SCALAR_VEC / ORTH_VEC / clip inlined); these theorems are proved of
   what it holds (no premise: Base/Tactics.v). *)
Theorem C06_code_weights : forall i f,
  let ic := clipR i in let fc := clipR f in let n := Rmax fc (1 - fc) in
  code_spin_weights ROps (1/2) i f =
  [ (1 - ic) * (1 - fc) / n; (1 - ic) * fc / n; ic * (1 - fc) / n; ic * fc / n; (1 - ic) * fc / n; ic * (1 - fc) / n ].
Proof. intros. rewrite code_spin_weights_is_model. apply C06_weights. Qed.
Print Assumptions C06_code_weights.

Theorem C06_code_is_model : forall xs i f qx qy ct st cp sp sld mx my mz,
  code_spin_weights ROps (1/2) i f = spin_weights ROps (1/2) i f /\
  code_mag_sld ROps sqrt xs qx qy ct st cp sp sld mx my mz = mag_sld ROps sqrt xs qx qy ct st cp sp sld (V mx my mz).
Proof. intros. split; [apply code_spin_weights_is_model | apply code_mag_sld_is_model]. Qed.
Print Assumptions C06_code_is_model.
