From Coq Require Import List Reals ZArith Lia.
Import ListNotations.
From SM Require Import Base.Tactics Base.Num Base.Lists C07.Model C07.Proofs Gen.C07_code Gen.C07_combine C07.Translated.

(* For every parameter count of P and S, with or without volfraction in P,
   with or without beta mode, R_eff mode and magnetic block: the index
   arithmetic of ProductKernel picks exactly the documented pieces. *)
Theorem C07_layout_slices :
  forall (T : Type) (O : Ops T) scale bg (P : list T) er volfrac_s Srest beta_mode er_mode mag weights nmag,
  length mag = (if 0 <? 3 * nmag then 3 * nmag + 4 else 0) ->
  let s_npars := 2 + length Srest in
  let L := layout (length P) s_npars (negb (isSome volfrac_s)) (isSome beta_mode) (isSome er_mode) nmag in
  let v := combined scale bg P er volfrac_s Srest beta_mode er_mode mag weights in
  slice v (p_lo L) (p_hi L) = P /\
  nth (er_index L) v (zero O) = er /\
  slice v (s_lo L) (s_hi L) = Srest /\
  (forall b, beta_mode = Some b -> nth (beta_mode_index L) v (zero O) = b) /\
  (forall m, er_mode = Some m -> nth (er_mode_index L) v (zero O) = m) /\
  slice v (mag_lo L) (mag_hi L) = mag /\
  (forall vf, volfrac_s = Some vf -> nth (length P + 2 + 1) v (zero O) = vf).
Proof.
  intros T O scale bg P er volfrac_s Srest beta_mode er_mode mag weights nmag Hmag s_npars L v.
  unfold v. rewrite combined_concat. set (segs := [_; _; _; _; _; _; _; _; _]).
  (* each index is the start of a segment: the length of what stands before it *)
  unfold L, layout, s_npars. rewrite <- Hmag, <- !olist_length.
  cbn [p_lo p_hi er_index s_lo s_hi beta_mode_index er_mode_index mag_lo mag_hi].
  assert (Hvf : b2n (negb (isSome volfrac_s)) + length (olist volfrac_s) = 1) by (destruct volfrac_s; reflexivity).
  set (nv := b2n (negb (isSome volfrac_s))) in *.
  repeat split.
  - apply (slice_concat segs 1); simpl; lia.
  - apply (nth_concat segs 2 _ er []); simpl; trivial; lia.
  - apply (slice_concat segs 4); simpl; lia.
  - intros b ->. apply (nth_concat segs 5 _ b []); simpl; trivial; lia.
  - intros m ->. apply (nth_concat segs 6 _ m []); simpl; trivial; lia.
  - apply (slice_concat segs 7); simpl; lia.
  - intros vf ->. apply (nth_concat segs 3 _ vf []); simpl; trivial; lia.
Qed.
Print Assumptions C07_layout_slices.

Theorem C07_formula : forall scale bg volfrac F Fsq S shell, shell <> 0%R ->
  combine ROps scale bg volfrac false false F Fsq S shell = (scale * (volfrac / shell) * Fsq * S + bg)%R.
Proof. intros. rewrite combine_R. unfold Rdiv. ring. Qed.
Print Assumptions C07_formula.

Theorem C07_formula_beta : forall scale bg volfrac F Fsq S shell, shell <> 0%R ->
  combine ROps scale bg volfrac false true F Fsq S shell = (scale * (volfrac / shell) * (Fsq + F * F * (S - 1)) + bg)%R.
Proof. intros. rewrite combine_R. unfold Rdiv. ring. Qed.
Print Assumptions C07_formula_beta.

Theorem C07_volfraction_owner : forall scale bg volfrac beta F Fsq S shell, shell <> 0%R ->
  combine ROps scale bg volfrac true beta F Fsq S shell =
  (scale / shell * (if beta then Fsq + F * F * (S - 1) else Fsq * S) + bg)%R.
Proof. intros. rewrite combine_R. ring. Qed.
Print Assumptions C07_volfraction_owner.

(* The index arithmetic as it is WRITTEN in product.py:
   Gen/C07_code.v is regenerated on every run from the text of ProductKernel.__init__ (Python-ast translation of
   its integer assignments, Python integers = Z); for every parameter count, flag combination and number of
   magnetic SLDs (S has at least its two leading parameters radius_effective and volfraction) it yields the model's
   layout - which C07_layout_slices shows to pick the documented pieces - and the documented slices of the
   lengths/offsets table: P's rows, S's rows (one fewer when P owns volfraction), and where S's distributions start
   (after its values). *)
Theorem C07_code_layout : translated = true ->
  forall (p_npars s_npars nmag : nat) (volfrac_in_p have_beta have_er : bool), (2 <= s_npars)%nat ->
  code_layout (Z.of_nat p_npars) (Z.of_nat s_npars) volfrac_in_p have_beta have_er (Z.of_nat nmag) =
  (layoutZ (layout p_npars s_npars volfrac_in_p have_beta have_er nmag)
   ++ [0; Z.of_nat p_npars; Z.of_nat p_npars; Z.of_nat (p_npars + s_npars - b2n volfrac_in_p)%nat; Z.of_nat (2 + s_npars)%nat])%Z.
Proof.
  intros Ht. untranslated Ht.
  all: clear Ht; intros p s n vf hb he Hs.
  all: unfold code_layout, layoutZ, layout.
  all: cbn [map app p_lo p_hi er_index s_lo s_hi beta_mode_index er_mode_index mag_lo mag_hi].
  (* the flags as numbers, and the magnetic block length, once; the entries then differ by linear arithmetic only *)
  all: rewrite mag_block_Z, !b2z_b2n; pose proof (b2n_le1 vf).
  all: repeat (f_equal; try lia).
  (* left: the beta_mode and er_mode indices, an [if have_.. then .. else 0] on either side *)
  all: destruct hb, he; cbn [b2n]; lia.
Qed.
Print Assumptions C07_code_layout.

(* the three formula theorems above are about the CODE's combination: the tail of ProductKernel.Iq translated from the
   current product.py on every run (Gen/C07_combine.v: the statements from PS to final_result evaluated symbolically for
   each value of the two flags) equals the model's combine for every number type and both flags *)
Theorem C07_code_combine : forall (T : Type) (O : Ops T) scale bg volfrac vp beta F Fsq S shell, combine_translated = true ->
  code_combine O scale bg volfrac vp beta F Fsq S shell = combine O scale bg volfrac vp beta F Fsq S shell.
Proof.
  intros T O scale bg volfrac vp beta F Fsq S shell Ht. untranslated Ht.
  all: unfold code_combine, combine; destruct vp, beta; reflexivity.
Qed.
Print Assumptions C07_code_combine.
Theorem C07_code_formula : forall scale bg volfrac beta F Fsq S shell, combine_translated = true -> shell <> 0%R ->
  code_combine ROps scale bg volfrac false beta F Fsq S shell =
  (scale * (volfrac / shell) * (if beta then Fsq + F * F * (S - 1) else Fsq * S) + bg)%R.
Proof.
  intros scale bg volfrac beta F Fsq S shell Ht _. rewrite C07_code_combine, combine_R by exact Ht. unfold Rdiv. ring.
Qed.
Print Assumptions C07_code_formula.
