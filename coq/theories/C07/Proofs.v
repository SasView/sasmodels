From Coq Require Import List Reals.
Import ListNotations.
From SM Require Import Base.Num C07.Model.

Definition olist {A} (o : option A) : list A := match o with Some v => [v] | None => [] end.
Definition isSome {A} (o : option A) : bool := match o with Some _ => true | None => false end.

Lemma olist_length {A} (o : option A) : length (olist o) = b2n (isSome o).
Proof. destruct o; reflexivity. Qed.

(* the combined vector by segments: slice_concat / nth_concat (Base.Lists) then say where each one starts *)
Lemma combined_concat {T} scale bg (P : list T) er volfrac_s Srest beta_mode er_mode mag weights :
  combined scale bg P er volfrac_s Srest beta_mode er_mode mag weights =
  concat [[scale; bg]; P; [er]; olist volfrac_s; Srest; olist beta_mode; olist er_mode; mag; weights].
Proof. unfold combined. simpl. rewrite app_nil_r. reflexivity. Qed.

Local Open Scope R_scope.
(* scale / <V_shell> * [volfraction unless P owns it] * (<F^2> S, or with beta <F^2> + <F>^2 (S - 1)) + background;
   a ring identity: division is multiplication by the inverse, no condition on the shell volume *)
Lemma combine_R scale bg volfrac vp beta F Fsq S shell :
  combine ROps scale bg volfrac vp beta F Fsq S shell =
  scale / shell * (if vp then 1 else volfrac) * (if beta then Fsq + F * F * (S - 1) else Fsq * S) + bg.
Proof. unfold combine. cbn [add mul sub div one ROps]. destruct vp, beta; ring. Qed.
