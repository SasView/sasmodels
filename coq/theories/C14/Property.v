From Coq Require Import List Reals Lra.
From SM Require Import Base.Num C01.Model C14.Proofs.
Open Scope R_scope.

(* discrete Cauchy-Schwarz, weights >= 0: (sum w F)^2 <= (sum w)(sum w F^2) *)
Theorem C14_cauchy_schwarz : forall l, Forall (fun p : pt => let '(w, _, _) := p in 0 <= w) l ->
  swF l * swF l <= sw l * swFF l.
Proof.
  induction 1 as [|[[w f] f2] l Hw Hl IH]; simpl; [lra|].
  (* the new point adds w * sum_j w_j (f - f_j)^2 to the difference *)
  pose proof (spread_nonneg f l Hl) as Hs. unfold spread in Hs. nra.
Qed.
Print Assumptions C14_cauchy_schwarz.

Lemma cauchy_schwarz_mean l : Forall (fun p : pt => let '(w, _, _) := p in 0 <= w) l -> 0 < sw l ->
  swF l / sw l * (swF l / sw l) <= swFF l / sw l.
Proof.
  intros Hw Hp. pose proof (C14_cauchy_schwarz l Hw).
  replace (swFF l / sw l) with (sw l * swFF l * / (sw l * sw l)) by (field; lra).
  replace (swF l / sw l * (swF l / sw l)) with (swF l * swF l * / (sw l * sw l)) by (field; lra).
  apply Rmult_le_compat_r; [left; apply Rinv_0_lt_compat; nra | assumption].
Qed.

Theorem C14_mean_amplitude_bound : forall l, Forall (fun p : pt => let '(w, f, f2) := p in 0 <= w /\ f * f <= f2) l -> 0 < sw l ->
  0 <= (swF l / sw l) * (swF l / sw l) <= swF2 l / sw l.
Proof.
  intros l H Hp. split; [nra|].
  apply Rle_trans with (1 := cauchy_schwarz_mean l (weight_part _ l H) Hp).
  apply Rmult_le_compat_r; [left; apply Rinv_0_lt_compat; assumption|].
  (* swFF l <= swF2 l, point by point *)
  clear Hp. induction H as [|[[w f] f2] l [Hw Hf] _ IH]; simpl; [lra|]. nra.
Qed.
Print Assumptions C14_mean_amplitude_bound.

Theorem C14_intensity_uses_reported : forall scale bg (s : Sums (T:=R)),
  intensity ROps scale bg s = map (fun x => scale / o_shell (normalise ROps s) * x + bg) (o_f2 (normalise ROps s)).
Proof. reflexivity. Qed.
Print Assumptions C14_intensity_uses_reported.

(* the equality clauses, weights >= 0: a constant amplitude over the mesh (monodisperse, spherically symmetric) gives
   (sum w F)^2 = (sum w)(sum w F^2); amplitudes within eps of one value (q -> 0) give, if sum w > 0, a gap
   <F^2> - <F>^2 of at most eps^2 *)
Theorem C14_equality_when_constant : forall c l,
  Forall (fun p : pt => let '(w, f, _) := p in 0 <= w /\ f = c) l -> swF l * swF l = sw l * swFF l.
Proof.
  intros c l H.
  assert (H0 : Forall (fun p => let '(w, f, _) := p in 0 <= w /\ Rabs (f - c) <= 0) l).
  { eapply Forall_impl; [|exact H]. intros [[w f] f2] [Hw ->]. rewrite Rminus_diag_eq, Rabs_R0 by reflexivity. lra. }
  pose proof (gap_le c 0 l H0). pose proof (C14_cauchy_schwarz l (weight_part _ l H)). lra.
Qed.
Print Assumptions C14_equality_when_constant.

Theorem C14_gap_bound : forall c eps l,
  Forall (fun p : pt => let '(w, f, _) := p in 0 <= w /\ Rabs (f - c) <= eps) l -> 0 < sw l ->
  0 <= swFF l / sw l - (swF l / sw l) * (swF l / sw l) <= eps * eps.
Proof.
  intros c eps l H Hp. split; [pose proof (cauchy_schwarz_mean l (weight_part _ l H) Hp); lra|].
  replace (swFF l / sw l - swF l / sw l * (swF l / sw l))
    with ((sw l * swFF l - swF l * swF l) * / (sw l * sw l)) by (field; lra).
  apply Rmult_le_reg_r with (sw l * sw l); [nra|].
  rewrite Rmult_assoc, Rinv_l by nra. rewrite Rmult_1_r. apply (gap_le c eps l H).
Qed.
Print Assumptions C14_gap_bound.
