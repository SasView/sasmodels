(* Amplitude bookkeeping over a weighted mesh: the four sums, and the weighted spread about a value c on which both
   Cauchy-Schwarz and the equality clauses rest *)
From Coq Require Import List Reals Lra.
Import ListNotations.
Open Scope R_scope.

(* a mesh point: weight, amplitude F, and the model's F^2 at that point *)
Definition pt := (R * R * R)%type.
Fixpoint sw (l : list pt) : R := match l with [] => 0 | (w, _, _) :: r => w + sw r end.
Fixpoint swF (l : list pt) : R := match l with [] => 0 | (w, f, _) :: r => w * f + swF r end.
Fixpoint swFF (l : list pt) : R := match l with [] => 0 | (w, f, _) :: r => w * (f * f) + swFF r end.
Fixpoint swF2 (l : list pt) : R := match l with [] => 0 | (w, _, f2) :: r => w * f2 + swF2 r end.

(* every per-point hypothesis of the theorems contains the sign of the weight *)
Lemma weight_part (P : R -> R -> Prop) l :
  Forall (fun p => let '(w, f, f2) := p in 0 <= w /\ P f f2) l -> Forall (fun p => let '(w, _, _) := p in 0 <= w) l.
Proof. apply Forall_impl. intros [[w f] f2] [Hw _]. exact Hw. Qed.

Lemma sw_nonneg l : Forall (fun p => let '(w, _, _) := p in 0 <= w) l -> 0 <= sw l.
Proof. induction 1 as [|[[w f] f2] l Hw _ IH]; simpl; lra. Qed.

(* sum_j w_j (c - f_j)^2, expanded: Cauchy-Schwarz is its sign (at the amplitude of the point added), the equality
   clauses its size (at the common value c, through [gap_spread]) *)
Definition spread (c : R) (l : list pt) : R := sw l * (c * c) - 2 * c * swF l + swFF l.

Lemma spread_nonneg c l : Forall (fun p => let '(w, _, _) := p in 0 <= w) l -> 0 <= spread c l.
Proof.
  unfold spread. induction 1 as [|[[w f] f2] l Hw _ IH]; simpl; [lra|].
  pose proof (Rle_0_sqr (c - f)) as Hs. unfold Rsqr in Hs. nra.
Qed.

Lemma spread_le c eps l : Forall (fun p => let '(w, f, _) := p in 0 <= w /\ Rabs (f - c) <= eps) l ->
  spread c l <= eps * eps * sw l.
Proof.
  unfold spread. induction 1 as [|[[w f] f2] l [Hw Hf] _ IH]; simpl; [lra|].
  assert ((f - c) * (f - c) <= eps * eps) by (unfold Rabs in Hf; destruct (Rcase_abs (f - c)); nra).
  nra.
Qed.

Lemma gap_spread c l :
  sw l * swFF l - swF l * swF l = sw l * spread c l - (swF l - c * sw l) * (swF l - c * sw l).
Proof. unfold spread. ring. Qed.

Lemma gap_le c eps l : Forall (fun p => let '(w, f, _) := p in 0 <= w /\ Rabs (f - c) <= eps) l ->
  sw l * swFF l - swF l * swF l <= eps * eps * (sw l * sw l).
Proof.
  intros H. rewrite (gap_spread c). pose proof (spread_le c eps l H). pose proof (sw_nonneg l (weight_part _ l H)).
  pose proof (Rle_0_sqr (swF l - c * sw l)) as Hq. unfold Rsqr in Hq. nra.
Qed.
