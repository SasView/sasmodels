From Coq Require Import Reals Lra.
From SM Require Import Base.Num C05.Model C05.Proofs Gen.C05_code C05.Translated.
Open Scope R_scope.

(* For ALL six angles (given as cosine/sine pairs, no trigonometric identity needed) and every detector point, the
   kernel's matrix applied to (qx,qy) is R^T (qx,qy,0), R^T the transpose of R = Rz(phi) Ry(theta) Rz(psi) Rx(dphi)
   Ry(dtheta) Rz(dpsi).  That R^T inverts R is not stated; for pairs with c^2 + s^2 = 1 it keeps the norm (C05_norm). *)
Theorem C05_qabc_is_Rinv : forall (theta phi psi dtheta dphi dpsi : cs (T:=R)) qx qy,
  qabc_apply ROps (qabc_rotation ROps theta phi psi dtheta dphi dpsi) qx qy =
  mapply ROps (transpose (Rdoc ROps theta phi psi dtheta dphi dpsi)) (V3 qx qy 0).
Proof. intros. rewrite Rdoc_inv_apply. autorewrite with rot. unfold_c05. f_equal; ring. Qed.
Print Assumptions C05_qabc_is_Rinv.

Theorem C05_qabc_angles : forall theta phi psi dtheta dphi dpsi qx qy : R,
  qabc_apply ROps (qabc_rotation ROps (of_angle theta) (of_angle phi) (of_angle psi)
                                      (of_angle dtheta) (of_angle dphi) (of_angle dpsi)) qx qy =
  mapply ROps (transpose (Rdoc ROps (of_angle theta) (of_angle phi) (of_angle psi)
                                    (of_angle dtheta) (of_angle dphi) (of_angle dpsi))) (V3 qx qy 0).
Proof. intros. apply C05_qabc_is_Rinv. Qed.
Print Assumptions C05_qabc_angles.

Theorem C05_qac_qc : forall (theta phi dtheta dphi : cs (T:=R)) qx qy,
  snd (qac_apply ROps (qac_rotation ROps theta phi dtheta dphi) qx qy) =
  v3 (mapply ROps (transpose (Rdoc ROps theta phi cs0 dtheta dphi cs0)) (V3 qx qy 0)).
Proof. intros. rewrite Rdoc_inv_apply. autorewrite with rot. unfold cs0. unfold_c05. ring. Qed.
Print Assumptions C05_qac_qc.

Theorem C05_qac_qab : forall (theta phi dtheta dphi : cs (T:=R)) qx qy,
  unit theta -> unit phi -> unit dtheta -> unit dphi ->
  let q := mapply ROps (transpose (Rdoc ROps theta phi cs0 dtheta dphi cs0)) (V3 qx qy 0) in
  fst (qac_apply ROps (qac_rotation ROps theta phi dtheta dphi) qx qy) = v1 q * v1 q + v2 q * v2 q.
Proof.
  intros theta phi dtheta dphi qx qy Ht Hp Hdt Hdp q.
  (* qab^2 = |q|^2 - qc^2: the norm is kept (Hn) and the third component is qc (Hc) *)
  pose proof (Rdoc_inv_norm theta phi cs0 dtheta dphi cs0 (V3 qx qy 0) Ht Hp cs0_unit Hdt Hdp cs0_unit) as Hn.
  fold q in Hn. unfold norm2 in Hn. cbn [v1 v2 v3] in Hn.
  pose proof (C05_qac_qc theta phi dtheta dphi qx qy) as Hc. fold q in Hc. rewrite <- Hc in Hn.
  unfold qac_apply in *. cbn [fst snd add mul sub opp ROps] in *. lra.
Qed.
Print Assumptions C05_qac_qab.

Theorem C05_norm : forall (theta phi psi dtheta dphi dpsi : cs (T:=R)) qx qy,
  unit theta -> unit phi -> unit psi -> unit dtheta -> unit dphi -> unit dpsi ->
  norm2 (qabc_apply ROps (qabc_rotation ROps theta phi psi dtheta dphi dpsi) qx qy) = qx * qx + qy * qy.
Proof.
  intros. rewrite C05_qabc_is_Rinv, Rdoc_inv_norm by assumption. unfold norm2; cbn [v1 v2 v3]. ring.
Qed.
Print Assumptions C05_norm.

Theorem C05_parity : forall (r : qabc_rot (T:=R)) qx qy,
  qabc_apply ROps r (- qx) (- qy) =
  let q := qabc_apply ROps r qx qy in V3 (- v1 q) (- v2 q) (- v3 q).
Proof. intros [] qx qy. unfold_c05. f_equal; ring. Qed.
Print Assumptions C05_parity.

Theorem C05_corotation : forall (theta phi psi dtheta dphi dpsi alpha : cs (T:=R)) qx qy,
  unit alpha ->
  let phi' := CS (c_ phi * c_ alpha - s_ phi * s_ alpha) (s_ phi * c_ alpha + c_ phi * s_ alpha) in
  qabc_apply ROps (qabc_rotation ROps theta phi' psi dtheta dphi dpsi)
             (c_ alpha * qx - s_ alpha * qy) (s_ alpha * qx + c_ alpha * qy) =
  qabc_apply ROps (qabc_rotation ROps theta phi psi dtheta dphi dpsi) qx qy.
Proof.
  intros theta phi psi dtheta dphi dpsi [ca sa] qx qy Ha%unit_sq phi'. cbn [c_ s_] in Ha.
  rewrite !C05_qabc_is_Rinv, !Rdoc_inv_apply. do 5 f_equal.
  (* only the innermost factor Rz(phi)^T sees the change, and there the two rotations by alpha cancel *)
  rewrite !mapply_tRz. unfold phi'. cbn [c_ s_]. f_equal; ring [Ha].
Qed.
Print Assumptions C05_corotation.

(* The same statements about the TEXT of kernel_iq.c:
   Gen/C05_code.v is regenerated on every run from the current kernel_iq.c by harness/c05.py with harness/ctrans.py
   (statement-by-statement translation of qac_rotation, qabc_rotation, qac_apply, qabc_apply);
   these theorems are proved of what it holds (no premise: Base/Tactics.v). *)
Theorem C05_code_qabc_is_Rinv : forall (theta phi psi dtheta dphi dpsi : cs (T:=R)) qx qy,
  code_qabc_apply ROps (code_qabc_rotation ROps theta phi psi dtheta dphi dpsi) qx qy =
  mapply ROps (transpose (Rdoc ROps theta phi psi dtheta dphi dpsi)) (V3 qx qy 0).
Proof. intros. rewrite code_qabc_rotation_is_model, code_qabc_apply_is_model. apply C05_qabc_is_Rinv. Qed.
Print Assumptions C05_code_qabc_is_Rinv.

Theorem C05_code_qac_is_Rinv : forall (theta phi dtheta dphi : cs (T:=R)) qx qy,
  unit theta -> unit phi -> unit dtheta -> unit dphi ->
  let q := mapply ROps (transpose (Rdoc ROps theta phi cs0 dtheta dphi cs0)) (V3 qx qy 0) in
  code_qac_apply ROps sqrt (code_qac_rotation ROps theta phi dtheta dphi) qx qy =
  (qab_of (v1 q * v1 q + v2 q * v2 q), v3 q).
Proof.
  intros theta phi dtheta dphi qx qy Ht Hp Hdt Hdp q. rewrite code_qac_rotation_is_model, code_qac_apply_is_model.
  rewrite (C05_qac_qab theta phi dtheta dphi qx qy Ht Hp Hdt Hdp), (C05_qac_qc theta phi dtheta dphi qx qy).
  reflexivity.
Qed.
Print Assumptions C05_code_qac_is_Rinv.

Theorem C05_code_is_model : forall (theta phi psi dtheta dphi dpsi : cs (T:=R)) (r : qabc_rot (T:=R)) (r2 : R * R) qx qy,
  code_qabc_rotation ROps theta phi psi dtheta dphi dpsi = qabc_rotation ROps theta phi psi dtheta dphi dpsi /\
  code_qac_rotation ROps theta phi dtheta dphi = qac_rotation ROps theta phi dtheta dphi /\
  code_qabc_apply ROps r qx qy = qabc_apply ROps r qx qy /\
  code_qac_apply ROps sqrt r2 qx qy = (qab_of (fst (qac_apply ROps r2 qx qy)), snd (qac_apply ROps r2 qx qy)).
Proof.
  intros. split; [apply code_qabc_rotation_is_model|].
  split; [apply code_qac_rotation_is_model|].
  split; [apply code_qabc_apply_is_model|apply code_qac_apply_is_model].
Qed.
Print Assumptions C05_code_is_model.

(* "each point weighted by its distribution weights times |cos(dtheta)|": the weight of a mesh point under the
   default (equirectangular) projection, READ from the APPLY_PROJECTION() macro of the current kernel_iq.c
   (Gen/C05_code.v; generate.PROJECTION = 1 is checked by the translator; w0 is its weight0, the product of the
   distribution weights) - for every jitter latitude, beyond +-90 degrees too, where the cosine itself is negative *)
Theorem C05_code_projection_weight : forall (dtheta : cs (T:=R)) w0,
  code_projection_weight ROps dtheta w0 = Rabs (c_ dtheta) * w0.
Proof. intros. unfold code_projection_weight. cbn [mul absv ROps]. ring. Qed.   (* [ring]: the order of the factors is free *)
Print Assumptions C05_code_projection_weight.
Theorem C05_code_projection_abs_cos : forall t w0,
  code_projection_weight ROps (CS (cos t) (sin t)) w0 = Rabs (cos t) * w0.
Proof. intros. rewrite C05_code_projection_weight. reflexivity. Qed.
Print Assumptions C05_code_projection_abs_cos.
Theorem C05_code_projection_nonneg : forall (dtheta : cs (T:=R)) w0, 0 <= w0 -> 0 <= code_projection_weight ROps dtheta w0.
Proof.
  intros dtheta w0 H. rewrite C05_code_projection_weight.
  apply Rmult_le_pos; [apply Rabs_pos | exact H].
Qed.
Print Assumptions C05_code_projection_nonneg.
(* a latitude and its mirror image beyond the pole (t and pi - t) carry the same weight *)
Theorem C05_code_projection_mirror : forall t w0,
  code_projection_weight ROps (CS (cos (PI - t)) (sin (PI - t))) w0 = code_projection_weight ROps (CS (cos t) (sin t)) w0.
Proof.
  intros. rewrite !C05_code_projection_abs_cos. replace (PI - t) with (- t + PI) by ring.
  rewrite neg_cos, cos_neg, Rabs_Ropp. reflexivity.
Qed.
Print Assumptions C05_code_projection_mirror.
