From Coq Require Import Reals Lra.
From SM Require Import Base.Num C05.Model.
Local Open Scope R_scope.

Notation csR := (cs (T:=R)).
Notation matR := (mat3 (T:=R)).
Notation vecR := (vec3 (T:=R)).
Definition unit (a : csR) : Prop := c_ a * c_ a + s_ a * s_ a = 1.
Definition of_angle (x : R) : csR := CS (cos x) (sin x).
Lemma of_angle_unit x : unit (of_angle x).
Proof. unfold unit, of_angle; simpl. pose proof (sin2_cos2 x) as H. unfold Rsqr in H. lra. Qed.

Definition cs0 : csR := CS 1 0.
Lemma cs0_unit : unit cs0.
Proof. unfold unit, cs0; simpl; ring. Qed.

Definition norm2 (v : vecR) : R := v1 v * v1 v + v2 v * v2 v + v3 v * v3 v.

(* unfolds the operations of C05.Model down to +, *, - on R and reduces the record projections: what is left of an
   equation between vectors or matrices is one ring identity per component *)
Ltac unfold_c05 := unfold qabc_apply, qabc_rotation, qac_apply, qac_rotation, mapply, transpose, mmul, Rx, Ry, Rz;
  cbn [add mul sub opp zero one ltb ROps c_ s_ v1 v2 v3 m11 m12 m13 m21 m22 m23 m31 m32 m33 r11 r12 r21 r22 r31 r32 fst snd].

Lemma transpose_mmul (A B : matR) : transpose (mmul ROps A B) = mmul ROps (transpose B) (transpose A).
Proof. destruct A, B. unfold_c05. f_equal; ring. Qed.
Lemma mapply_mmul (A B : matR) v : mapply ROps (mmul ROps A B) v = mapply ROps A (mapply ROps B v).
Proof. destruct A, B, v. unfold_c05. f_equal; ring. Qed.

Definition I3 : matR := M3 1 0 0 0 1 0 0 0 1.
Lemma mmul_I_l (A : matR) : mmul ROps I3 A = A.
Proof. destruct A. unfold I3. unfold_c05. f_equal; ring. Qed.
Lemma mmul_I_r (A : matR) : mmul ROps A I3 = A.
Proof. destruct A. unfold I3. unfold_c05. f_equal; ring. Qed.

(* the transpose of each elementary rotation (of any pair, unit or not) acting on a vector; as the rewrite base [rot]
   they carry (qx, qy, 0) through the six factors of Rdoc_inv_apply in C05_qabc_is_Rinv and C05_qac_qc *)
Lemma mapply_tRx a x y z :
  mapply ROps (transpose (Rx ROps a)) (V3 x y z) = V3 x (c_ a * y + s_ a * z) (- s_ a * y + c_ a * z).
Proof. unfold_c05. f_equal; ring. Qed.
Lemma mapply_tRy a x y z :
  mapply ROps (transpose (Ry ROps a)) (V3 x y z) = V3 (c_ a * x - s_ a * z) y (s_ a * x + c_ a * z).
Proof. unfold_c05. f_equal; ring. Qed.
Lemma mapply_tRz a x y z :
  mapply ROps (transpose (Rz ROps a)) (V3 x y z) = V3 (c_ a * x + s_ a * y) (- s_ a * x + c_ a * y) z.
Proof. unfold_c05. f_equal; ring. Qed.
Global Hint Rewrite mapply_tRx mapply_tRy mapply_tRz : rot.

Lemma unit_sq a : unit a -> c_ a * c_ a = 1 - s_ a * s_ a.
Proof. unfold unit. lra. Qed.

(* each of them preserves the norm (a ring identity modulo c^2 = 1 - s^2), so the proofs below never expand a product
   of matrices *)
Lemma norm2_tRx a v : unit a -> norm2 (mapply ROps (transpose (Rx ROps a)) v) = norm2 v.
Proof. intros H%unit_sq. destruct v as [x y z]. unfold norm2. rewrite mapply_tRx. cbn [v1 v2 v3]. ring [H]. Qed.
Lemma norm2_tRy a v : unit a -> norm2 (mapply ROps (transpose (Ry ROps a)) v) = norm2 v.
Proof. intros H%unit_sq. destruct v as [x y z]. unfold norm2. rewrite mapply_tRy. cbn [v1 v2 v3]. ring [H]. Qed.
Lemma norm2_tRz a v : unit a -> norm2 (mapply ROps (transpose (Rz ROps a)) v) = norm2 v.
Proof. intros H%unit_sq. destruct v as [x y z]. unfold norm2. rewrite mapply_tRz. cbn [v1 v2 v3]. ring [H]. Qed.

Lemma Rdoc_inv_apply theta phi psi dtheta dphi dpsi v :
  mapply ROps (transpose (Rdoc ROps theta phi psi dtheta dphi dpsi)) v =
  mapply ROps (transpose (Rz ROps dpsi)) (mapply ROps (transpose (Ry ROps dtheta)) (mapply ROps (transpose (Rx ROps dphi))
 (mapply ROps (transpose (Rz ROps psi)) (mapply ROps (transpose (Ry ROps theta)) (mapply ROps (transpose (Rz ROps phi)) v))))).
Proof. unfold Rdoc. rewrite !transpose_mmul, !mapply_mmul. reflexivity. Qed.

Lemma Rdoc_inv_norm theta phi psi dtheta dphi dpsi v :
  unit theta -> unit phi -> unit psi -> unit dtheta -> unit dphi -> unit dpsi ->
  norm2 (mapply ROps (transpose (Rdoc ROps theta phi psi dtheta dphi dpsi)) v) = norm2 v.
Proof.
  intros. rewrite Rdoc_inv_apply, norm2_tRz, norm2_tRy, norm2_tRx, norm2_tRz, norm2_tRy, norm2_tRz by assumption.
  reflexivity.
Qed.
