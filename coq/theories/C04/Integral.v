(* C04/Integral.v — the midpoint bound with Coquelicot's integral: for one cell [a,b] of mass m = int_a^b rho and node x,
   | m f(x) - int_a^b f rho | <= L h m; grids of such cells; the pinhole's Gaussian as a density that meets the premises. *)
From Coq Require Import Reals Lra List.
From Coquelicot Require Import Coquelicot.
From SM Require Import C04.Proofs.
Import ListNotations.
Local Open Scope R_scope.

Lemma lipschitz_continuous (f : R -> R) (L : R) :
  (forall u v, Rabs (f u - f v) <= L * Rabs (u - v)) -> forall t, continuous f t.
Proof.
  intros Hlip t. apply continuity_pt_filterlim. intros eps Heps.
  assert (HL : 0 <= L).
  { pose proof (Hlip 1 0) as H. pose proof (Rabs_pos (f 1 - f 0)). replace (1 - 0) with 1 in H by ring. rewrite Rabs_R1 in H. lra. }
  exists (eps / (L + 1)). split; [apply Rdiv_lt_0_compat; lra|].
  intros u [_ Hu]. change (Rabs (u - t) < eps / (L + 1)) in Hu. apply Rlt_div_r in Hu; [|lra].
  (* L |u - t| <= (L + 1) |u - t| < eps *)
  eapply Rle_lt_trans; [apply Hlip|]. pose proof (Rabs_pos (u - t)). lra.
Qed.

(* Coquelicot states linearity and the norm bound of the integral over normed modules; over R its [scal], [minus]
   and [norm] are convertible with Rmult, Rminus and Rabs (as [zero] and [plus] are with 0 and Rplus, which
   C04_scheme_vs_integral relies on after RInt_point and RInt_Chasles), and the cell bound below uses them in that form *)
Lemma RInt_Rmult (u : R -> R) a b c : ex_RInt u a b -> RInt (fun t => c * u t) a b = c * RInt u a b.
Proof. exact (RInt_scal u a b c). Qed.
Lemma RInt_Rminus (u v : R -> R) a b : ex_RInt u a b -> ex_RInt v a b ->
  RInt (fun t => u t - v t) a b = RInt u a b - RInt v a b.
Proof. exact (RInt_minus u v a b). Qed.
Lemma RInt_Rabs_le (u k : R -> R) a b : a <= b -> ex_RInt u a b -> ex_RInt k a b ->
  (forall t, a <= t <= b -> Rabs (u t) <= k t) -> Rabs (RInt u a b) <= RInt k a b.
Proof.
  intros Hab Hu Hk Hle. exact (norm_RInt_le u k a b _ _ Hab Hle (RInt_correct u a b Hu) (RInt_correct k a b Hk)).
Qed.

Section Cell.
  Variables (f rho : R -> R) (L h : R).
  Hypothesis Hlip : forall u v, Rabs (f u - f v) <= L * Rabs (u - v).
  Hypothesis HL : 0 <= L.
  Hypothesis Crho : forall t, continuous rho t.

  Lemma ex_rho a b : ex_RInt rho a b.
  Proof. apply (ex_RInt_continuous rho). intros z _. apply Crho. Qed.
  Lemma ex_frho a b : ex_RInt (fun t => f t * rho t) a b.
  Proof.
    apply (ex_RInt_continuous (fun t => f t * rho t)). intros z _.
    apply (continuous_mult f rho); [apply (lipschitz_continuous f L Hlip) | apply Crho].
  Qed.

  Lemma cell_bound a b x : a <= b ->
    (forall t, a <= t <= b -> 0 <= rho t) -> (forall t, a <= t <= b -> Rabs (x - t) <= h) ->
    Rabs (RInt rho a b * f x - RInt (fun t => f t * rho t) a b) <= L * h * RInt rho a b.
  Proof.
    intros Hab Hpos Hx.
    assert (Ec : forall c, ex_RInt (fun t => c * rho t) a b) by (intros c; apply (ex_RInt_scal rho), ex_rho).
    assert (Ed : ex_RInt (fun t => f x * rho t - f t * rho t) a b)
      by (apply (ex_RInt_minus (V := R_NormedModule)); [apply Ec | apply ex_frho]).
    (* m f(x) - int f rho = int (f x rho - f rho)   and   L h m = int L h rho *)
    rewrite (Rmult_comm _ (f x)), <- (RInt_Rmult rho a b (f x)), <- (RInt_Rmult rho a b (L * h)), <- RInt_Rminus
      by (apply ex_rho || apply ex_frho || apply Ec).
    apply RInt_Rabs_le; [exact Hab | exact Ed | apply Ec |].
    (* pointwise: |f x - f t| rho t <= L h rho t *)
    intros t Ht. rewrite (Rmult_comm (f x)), (Rmult_comm (f t)). apply lipschitz_weighted; auto.
  Qed.

  (* a grid: cells (a, b, node) *)
  Definition cell_ok (c : R * R * R) : Prop :=
    let '(a, b, x) := c in a <= b /\ (forall t, a <= t <= b -> 0 <= rho t) /\ (forall t, a <= t <= b -> Rabs (x - t) <= h).
  Definition scheme (cells : list (R * R * R)) : R :=
    fold_right (fun c acc => let '(a, b, x) := c in RInt rho a b * f x + acc) 0 cells.
  Fixpoint contiguous (lo : R) (cells : list (R * R * R)) : Prop :=
    match cells with [] => True | (a, b, _) :: r => a = lo /\ contiguous b r end.
  Fixpoint last_edge (lo : R) (cells : list (R * R * R)) : R :=
    match cells with [] => lo | (_, b, _) :: r => last_edge b r end.
End Cell.

(* the pinhole density without its constant factor (standard deviation sigma, centre q) *)
Definition gauss (q sigma t : R) : R := exp (- ((t - q) / sigma) * ((t - q) / sigma) / 2).
Lemma gauss_continuous q sigma t : continuous (gauss q sigma) t.
Proof.
  apply (ex_derive_continuous (gauss q sigma)). unfold gauss. auto_derive. exact I.
Qed.
Example pinhole_cells_ok q sigma : sigma <> 0 ->
  let cells := [(q - 1, q, q - 1/2); (q, q + 1, q + 1/2)] in
  List.Forall (cell_ok (gauss q sigma) (1/2)) cells /\ contiguous (q - 1) cells.
Proof.
  intros Hs cells. split.
  - assert (Hc : forall a b x, a <= b -> (forall t, a <= t <= b -> Rabs (x - t) <= 1/2) -> cell_ok (gauss q sigma) (1/2) (a, b, x)).
    { intros a b x Hab Hx. unfold cell_ok. split; [exact Hab|]. split; [intros; left; apply exp_pos | exact Hx]. }
    unfold cells. constructor; [|constructor; [|constructor]]; apply Hc; try lra; intros t Ht; apply Rabs_le; lra.
  - simpl. repeat split; auto.
Qed.
