(* C04/Proofs.v — what both first-order bounds (discrete and against the integral) are proved from: a weighted Lipschitz
   step and the step of a summed error; and the geometry of the 2-D sampling cloud. *)
From Coq Require Import Reals Lra List.
Import ListNotations.
From SM Require Import Base.Num C04.Model.
Local Open Scope R_scope.

Fixpoint wsum (f : R -> R) (l : list (R * R)) : R :=     (* over (mass, point) pairs *)
  match l with [] => 0 | (m, x) :: r => m * f x + wsum f r end.

(* a weight w >= 0 at a point within h of x: the Lipschitz bound on f, weighted *)
Lemma lipschitz_weighted (f : R -> R) L h w x t : (forall u v, Rabs (f u - f v) <= L * Rabs (u - v)) -> 0 <= L ->
  0 <= w -> Rabs (x - t) <= h -> Rabs (w * f x - w * f t) <= L * h * w.
Proof.
  intros Hlip HL Hw Hx. rewrite <- Rmult_minus_distr_l, Rabs_mult, (Rabs_pos_eq w Hw), (Rmult_comm w).
  apply Rmult_le_compat_r; [exact Hw|]. eapply Rle_trans; [apply Hlip|]. apply Rmult_le_compat_l; assumption.
Qed.

(* the step of a summed error bound: one more term a on the scheme's side and a' on the exact side, off by at most
   K m, before what was summed so far (b, b', off by at most K k) *)
Lemma err_step K a a' m b b' k : Rabs (a - a') <= K * m -> Rabs (b - b') <= K * k -> Rabs (a + b - (a' + b')) <= K * (m + k).
Proof.
  intros H1 H2. replace (a + b - (a' + b')) with ((a - a') + (b - b')) by ring.
  eapply Rle_trans; [apply Rabs_triang|]. lra.
Qed.

(* the distribution function of the unit Gaussian when [erf] is the error function; [erf] is any function here *)
Section Pinhole.
  Variable erf : R -> R.
  Definition Phi (x : R) : R := (1 + erf (x / sqrt 2)) / 2.
End Pinhole.

Lemma sample_aligned (qx qy dq_par dq_perp r cd sd : R) : 0 < qx * qx + qy * qy ->
  let q_r := sqrt (qx * qx + qy * qy) in
  let c := qx / q_r in let s := qy / q_r in
  sample ROps sqrt qx qy dq_par dq_perp c s r cd sd =
  (qx + (r * dq_par * cd) * c + (r * dq_perp * sd) * (- s),
   qy + (r * dq_par * cd) * s + (r * dq_perp * sd) * c).
Proof.
  intros Hq q_r c s. unfold sample. cbn [add sub mul opp ROps]. fold q_r.
  assert (Hr : q_r <> 0) by (apply Rgt_not_eq; apply sqrt_lt_R0; exact Hq).
  unfold c, s. f_equal; field; exact Hr.
Qed.
(* for qx < 0, atan(qy/qx) is the direction of -q and the cloud is that of -q: the point reflection (I(-q) = I(q)) *)
Lemma sample_reflected (qx qy dq_par dq_perp c s r cd sd : R) :
  sample ROps sqrt (- qx) (- qy) dq_par dq_perp c s r cd sd = sample ROps sqrt qx qy dq_par dq_perp c s r cd sd.
Proof. unfold sample. cbn [add sub mul opp ROps]. replace (- qx * - qx + - qy * - qy) with (qx * qx + qy * qy) by ring. reflexivity. Qed.
Lemma atan_direction (qx qy : R) : 0 < qx ->
  cos (atan (qy / qx)) = qx / sqrt (qx * qx + qy * qy) /\ sin (atan (qy / qx)) = qy / sqrt (qx * qx + qy * qy).
Proof.
  intros Hx. rewrite cos_atan, sin_atan.
  assert (Hp : 0 < sqrt (1 + (qy / qx)²)) by (apply sqrt_lt_R0; unfold Rsqr; nra).
  replace (qx * qx + qy * qy) with (qx² * (1 + (qy / qx)²)) by (unfold Rsqr; field; lra).
  rewrite sqrt_mult, sqrt_Rsqr by (unfold Rsqr; nra). split; field; lra.
Qed.
