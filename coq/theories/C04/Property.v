From Coq Require Import Reals Lra.
From Coquelicot Require Import Coquelicot.
From Coq Require Import List.
Import ListNotations.
From SM Require Import Base.Num C04.Model C04.Proofs C04.Integral.
Open Scope R_scope.

(* First-order error of a midpoint scheme, in discrete form: cells of mass
   m_j >= 0, scheme node x_j, and y_j the point of the same cell at which the
   exact cell integral equals m_j f(y_j) (mean value theorem; not formalised),
   |x_j - y_j| <= h, f L-Lipschitz:  |scheme - exact| <= L h sum(m_j). *)
Theorem C04_midpoint_O_h : forall (f : R -> R) (L h : R) (cells : list (R * R * R)),
  (forall a b, Rabs (f a - f b) <= L * Rabs (a - b)) -> 0 <= L ->
  Forall (fun c => let '(m, x, y) := c in 0 <= m /\ Rabs (x - y) <= h) cells ->
  Rabs (wsum f (map (fun c => let '(m, x, _) := c in (m, x)) cells) -
        wsum f (map (fun c => let '(m, _, y) := c in (m, y)) cells))
  <= L * h * fold_right (fun c a => let '(m, _, _) := c in m + a) 0 cells.
Proof.
  intros f L h cells Hlip HL Hc. induction Hc as [|[[m x] y] cells [Hm Hxy] _ IH]; simpl.
  - rewrite Rminus_0_r, Rabs_R0. lra.
  - apply err_step; [apply lipschitz_weighted; assumption | exact IH].
Qed.
Print Assumptions C04_midpoint_O_h.

(* pinhole: erf((b-q)/(sqrt2 sigma)) - erf((a-q)/(sqrt2 sigma)) is 2 (Phi((b-q)/sigma) - Phi((a-q)/sigma)) with
   Phi(x) = (1 + erf(x/sqrt 2))/2 - for erf the error function, twice the mass the Gaussian centred on q with standard
   deviation sigma gives to [a,b].  The identity is algebra and holds for any function [erf]; that Phi is the
   Gaussian's distribution function is not formalised. *)
Theorem C04_pinhole_cell_mass : forall (erf : R -> R) q sigma a b, sigma <> 0 ->
  erf ((b - q) / (sqrt 2 * sigma)) - erf ((a - q) / (sqrt 2 * sigma)) =
  2 * (Phi erf ((b - q) / sigma) - Phi erf ((a - q) / sigma)).
Proof.
  intros erf q sigma a b Hs. unfold Phi.
  assert (H2 : sqrt 2 <> 0) by (apply Rgt_not_eq, sqrt_lt_R0; lra).
  replace ((b - q) / sigma / sqrt 2) with ((b - q) / (sqrt 2 * sigma)) by (field; auto).
  replace ((a - q) / sigma / sqrt 2) with ((a - q) / (sqrt 2 * sigma)) by (field; auto).
  field.
Qed.
Print Assumptions C04_pinhole_cell_mass.

(* 2-D: exp(-a^2/2) - exp(-b^2/2) is the mass of the radial density rho exp(-rho^2/2) on [a, b], for every a, b.
   _calc_res takes this difference at r -+ bin_size/2 as the weight of ring r; no statement here ties it to
   C04/Model.ring_weight. *)
Theorem C04_ring_mass : forall a b : R,
  is_RInt (fun rho => rho * exp (- (rho * rho) / 2)) a b (exp (- (a * a) / 2) - exp (- (b * b) / 2)).
Proof.
  intros a b.
  replace (exp (- (a * a) / 2) - exp (- (b * b) / 2))
    with (minus ((fun rho => - exp (- (rho * rho) / 2)) b) ((fun rho => - exp (- (rho * rho) / 2)) a))
    by (unfold minus, plus, Hierarchy.opp; simpl; ring).
  apply (is_RInt_derive (fun rho => - exp (- (rho * rho) / 2)) (fun rho => rho * exp (- (rho * rho) / 2))).
  - intros x _. auto_derive; auto. unfold Rdiv. set (E := exp (- (x * x) * / 2)). field.
  - intros x _. apply (ex_derive_continuous (fun rho => rho * exp (- (rho * rho) / 2))). auto_derive; auto.
Qed.
Print Assumptions C04_ring_mass.

(* 2-D: every sample of a data point's cloud is  q + (r dq_par cos a) q^ + (r dq_perp sin a) t^  with q^ = q/|q|
   the direction of q (the cosine and sine of atan(qy/qx)) and t^ the tangential direction: the Gaussian is an
   ellipse aligned with the q direction, dq_par its radial and dq_perp its tangential standard deviation
   (qx > 0; for qx < 0 the cloud is the point reflection, C04/Proofs.sample_reflected). *)
Theorem C04_cloud_aligned : forall qx qy dq_par dq_perp r cd sd : R, 0 < qx ->
  let c := cos (atan (qy / qx)) in let s := sin (atan (qy / qx)) in
  sample ROps sqrt qx qy dq_par dq_perp c s r cd sd =
  (qx + (r * dq_par * cd) * c + (r * dq_perp * sd) * (- s),
   qy + (r * dq_par * cd) * s + (r * dq_perp * sd) * c)
  /\ c = qx / sqrt (qx * qx + qy * qy) /\ s = qy / sqrt (qx * qx + qy * qy).
Proof.
  intros qx qy dq_par dq_perp r cd sd Hx c s. destruct (atan_direction qx qy Hx) as [Hc Hs]. fold c in Hc. fold s in Hs.
  split; [|split; assumption]. rewrite Hc, Hs. apply sample_aligned. nra.
Qed.
Print Assumptions C04_cloud_aligned.

(* The same first-order bound against the documented integral itself (Coquelicot's Riemann integral).
   Cells [a_j, b_j] of the calculation grid with nodes x_j, resolution density rho >= 0 (continuous), weights
   m_j = int_cell rho (the cell masses), intensity f L-Lipschitz, every
   node within h of every point of its cell, cells contiguous from lo to the last edge:
       | sum_j m_j f(x_j)  -  int_lo^hi f rho |  <=  L h int_lo^hi rho ,
   and for the normalised weights m_j / M that the weight matrix holds the error against the renormalised
   integral is at most L h: the scheme converges to the documented integral in proportion to the grid spacing. *)
Theorem C04_scheme_vs_integral : forall (f rho : R -> R) (L h : R),
  (forall u v, Rabs (f u - f v) <= L * Rabs (u - v)) -> 0 <= L -> (forall t, continuous rho t) ->
  forall cells lo, List.Forall (cell_ok rho h) cells -> contiguous lo cells ->
  Rabs (scheme f rho cells - RInt (fun t => f t * rho t) lo (last_edge lo cells)) <= L * h * RInt rho lo (last_edge lo cells).
Proof.
  intros f rho L h Hlip HL Crho cells lo Hok. revert lo.
  pose proof (ex_frho f rho L Hlip Crho) as Ef. pose proof (ex_rho rho Crho) as Er.
  induction Hok as [|[[a b] x] cells [Hab [Hpos Hx]] _ IH]; intros lo Hc; simpl.
  - rewrite !RInt_point, Rminus_0_r, Rabs_R0, Rmult_0_r. apply Rle_refl.
  - (* the cell integrals join (Chasles) as the cell bounds add up *)
    destruct Hc as [-> Hr].
    rewrite <- (RInt_Chasles _ lo b (last_edge b cells) (Ef _ _) (Ef _ _)),
            <- (RInt_Chasles _ lo b (last_edge b cells) (Er _ _) (Er _ _)).
    apply err_step; [exact (cell_bound f rho L h Hlip HL Crho lo b x Hab Hpos Hx) | exact (IH b Hr)].
Qed.
Print Assumptions C04_scheme_vs_integral.

Theorem C04_normalised_first_order : forall (f rho : R -> R) (L h : R) cells lo,
  (forall u v, Rabs (f u - f v) <= L * Rabs (u - v)) -> 0 <= L -> (forall t, continuous rho t) ->
  List.Forall (cell_ok rho h) cells -> contiguous lo cells ->
  let M := RInt rho lo (last_edge lo cells) in 0 < M ->
  Rabs (scheme f rho cells / M - RInt (fun t => f t * rho t) lo (last_edge lo cells) / M) <= L * h.
Proof.
  intros f rho L h cells lo Hlip HL Crho Hok Hc M HM.
  pose proof (C04_scheme_vs_integral f rho L h Hlip HL Crho cells lo Hok Hc) as H. fold M in H.
  unfold Rdiv. rewrite <- Rmult_minus_distr_r, Rabs_mult, (Rabs_pos_eq (/ M)) by (left; apply Rinv_0_lt_compat; exact HM).
  apply Rmult_le_reg_r with M; [exact HM|]. rewrite Rmult_assoc, Rinv_l by lra. lra.
Qed.
Print Assumptions C04_normalised_first_order.

(* the premises are satisfiable by the pinhole density (a Gaussian of any non-zero width) *)
Theorem C04_pinhole_premises : forall q sigma, sigma <> 0 ->
  (forall t, continuous (gauss q sigma) t) /\
  let cells := [(q - 1, q, q - 1/2); (q, q + 1, q + 1/2)] in
  List.Forall (cell_ok (gauss q sigma) (1/2)) cells /\ contiguous (q - 1) cells.
Proof. intros q sigma Hs. split; [intros t; apply gauss_continuous | apply pinhole_cells_ok; exact Hs]. Qed.
Print Assumptions C04_pinhole_premises.
