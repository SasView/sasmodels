(* Which 1-D data points get a theory value: those inside [qmin, qmax] that the mask (when the data has one) does not
   exclude and whose intensity (when the data has intensities) is a number - each condition on its own, none
   suspended by another. *)
From SM Require Import Base.Num.

Definition keep1d_model {T : Type} (O : Ops T) (qmin qmax x : T) (has_mask masked has_y ynan : bool) : bool :=
  leb O qmin x && leb O x qmax && (negb has_mask || negb masked) && (negb has_y || negb ynan).

Lemma good_point_selected {T} (O : Ops T) qmin qmax x has_mask has_y :
  leb O qmin x = true -> leb O x qmax = true -> keep1d_model O qmin qmax x has_mask false has_y false = true.
Proof. intros H1 H2. unfold keep1d_model. rewrite H1, H2. destruct has_mask, has_y; reflexivity. Qed.
