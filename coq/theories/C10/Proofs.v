From Coq Require Import List Bool.
Import ListNotations.
From SM Require Import Base.Lists C10.Model Gen.C10_code.

Lemma memb_In x l : memb x l = true <-> In x l.
Proof. apply existsb_eqb_In. Qed.

Lemma memb_same_elements k l l' : (forall x, In x l <-> In x l') -> memb k l = memb k l'.
Proof. intros H. apply eq_true_iff_eq. rewrite !memb_In. apply H. Qed.

Lemma get_mesh_ok_iff table keys : get_mesh_ok table keys = true <-> Forall (fun k => In k (accepted table)) keys.
Proof.
  unfold get_mesh_ok, leftover. induction keys as [|k l IH]; simpl; [split; auto|].
  destruct (memb k (accepted table)) eqn:E; simpl.
  - apply memb_In in E. rewrite IH. split; intros H; [constructor; auto | inversion H; auto].
  - split; [discriminate|]. intros H. inversion H as [|? ? Hk _]. apply memb_In in Hk. congruence.
Qed.

Inductive sublist {A} : list A -> list A -> Prop :=
| sl_nil : sublist [] []
| sl_skip x l l' : sublist l l' -> sublist l (x :: l')
| sl_keep x l l' : sublist l l' -> sublist (x :: l) (x :: l').

Lemma code_accepted_for_same (p : par) x : In x (code_accepted_for p) <-> In x (accepted_for p).
Proof. destruct p as [n []]; unfold code_accepted_for, accepted_for; simpl; tauto. Qed.
