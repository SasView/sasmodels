From Coq Require Import String List Bool Lia.
Import ListNotations.
From SM Require Import Base.Tactics Base.Lists Base.Num C10.Model C10.Proofs C10.Select Gen.C10_code Gen.C10_select.
Open Scope string_scope.

Theorem C10_unknown_refused_direct : forall table keys k,
  In k keys -> ~ In k (accepted table) -> get_mesh_ok table keys = false.
Proof.
  intros table keys k Hk Hn. destruct (get_mesh_ok table keys) eqn:E; [|reflexivity].
  apply get_mesh_ok_iff in E. rewrite Forall_forall in E. elim Hn. auto.
Qed.
Print Assumptions C10_unknown_refused_direct.

Theorem C10_known_accepted_direct : forall table keys,
  Forall (fun k => In k (accepted table)) keys -> get_mesh_ok table keys = true.
Proof. intros table keys. apply get_mesh_ok_iff. Qed.
Print Assumptions C10_known_accepted_direct.

Theorem C10_suffix_on_plain_refused : forall n suf,
  suf <> "" -> accepted_for (n, false) = [n] /\ ~ In (n ++ suf) (accepted_for (n, false)).
Proof.
  intros n suf Hs. split; [reflexivity|]. simpl. intros [H|[]].
  (* n = n ++ suf: compare the lengths *)
  apply (f_equal String.length) in H. rewrite length_append in H. destruct suf; [congruence | simpl in H; lia].
Qed.
Print Assumptions C10_suffix_on_plain_refused.

Theorem C10_unknown_refused_sasview : forall table name field,
  (forall p, In p table -> fst p <> name) -> setparam_ok table name field = false.
Proof.
  intros table name field H. unfold setparam_ok.
  assert (E : forall p, In p table -> String.eqb (fst p) name = false) by (intros p Hp; apply String.eqb_neq, H, Hp).
  destruct field; rewrite (proj2 (existsb_false _ table)); trivial. intros p Hp. rewrite E by exact Hp. reflexivity.
Qed.
Print Assumptions C10_unknown_refused_sasview.

Theorem C10_naming_roundtrip : forall f, In f fields -> to_field (to_underscore f) = f.
Proof. unfold fields. simpl. intros f [<-|[<-|[<-|[<-|[]]]]]; reflexivity. Qed.
Print Assumptions C10_naming_roundtrip.

Theorem C10_select_is_filter : forall (A : Type) (keep : A -> bool) (l : list A),
  sublist (select A keep l) l /\ (forall x, In x (select A keep l) <-> In x l /\ keep x = true).
Proof.
  intros A keep l. split; [|intros x; apply filter_In].
  unfold select. induction l as [|x l IH]; simpl; [constructor|].
  destruct (keep x); [apply sl_keep | apply sl_skip]; auto.
Qed.
Print Assumptions C10_select_is_filter.

(* the keys direct_model._pop_par_weights consumes, translated from the text of direct_model.py on every run
   (value and, for dispersible parameters, the four dispersity suffixes; get_mesh pops them for every call parameter
   from a copy of the caller's dictionary and raises if anything is left), are the model's [accepted] as a set (no
   premise: Base/Tactics.v), and membership in that set is all get_mesh_ok asks of [accepted] *)
Theorem C10_code_accepted : forall table k,
  memb k (flat_map code_accepted_for table) = memb k (accepted table).
Proof.
  intros table k. apply memb_same_elements. intros x. unfold accepted. rewrite !in_flat_map.
  split; intros [p [Hp Hx]]; exists p; (split; [exact Hp | apply code_accepted_for_same, Hx]).
Qed.
Print Assumptions C10_code_accepted.

(* the selection of 1-D data points, as WRITTEN in DataMixin._interpret_data (Gen/C10_select.v: the statements that
   build `index`, evaluated symbolically for each combination of "the data has a mask" / "has intensities") is
   keep1d_model (C10/Select.v) *)
Theorem C10_code_selection : selection_translated = true -> forall (T : Type) (O : Ops T) qmin qmax x has_mask masked has_y ynan,
  code_keep1d O qmin qmax x has_mask masked has_y ynan = keep1d_model O qmin qmax x has_mask masked has_y ynan.
Proof.
  intros Ht. untranslated Ht.
  all: intros T O qmin qmax x has_mask masked has_y ynan; unfold code_keep1d, keep1d_model.
  all: destruct has_mask, masked, has_y, ynan; destruct (leb O qmin x); destruct (leb O x qmax); reflexivity.
Qed.
Print Assumptions C10_code_selection.
Theorem C10_nan_never_selected : forall (T : Type) (O : Ops T) qmin qmax x has_mask masked,
  keep1d_model O qmin qmax x has_mask masked true true = false.
Proof. intros. unfold keep1d_model. apply andb_false_r. Qed.
Print Assumptions C10_nan_never_selected.
Theorem C10_masked_never_selected : forall (T : Type) (O : Ops T) qmin qmax x has_y ynan,
  keep1d_model O qmin qmax x true true has_y ynan = false.
Proof. intros. unfold keep1d_model. cbn [negb orb]. rewrite andb_false_r. reflexivity. Qed.
Print Assumptions C10_masked_never_selected.
