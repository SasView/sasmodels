(* Lookup in the result of _convert_pars, key by key ([spec]); setdefault; and the test on a table row under which its
   targets are pairwise distinct. *)
From Coq Require Import String List Bool Ascii.
Import ListNotations.
From SM Require Import Base.Lists C20.Model.
Open Scope string_scope.

Section P.
  Variable V : Type.
  Notation dict := (dict V).

  Lemma get_set (d : dict) k v k2 : get V (set V d k v) k2 = if String.eqb k k2 then Some v else get V d k2.
  Proof.
    induction d as [|[k' v'] d IH]; simpl; [reflexivity|].
    destruct (String.eqb_spec k' k) as [->|Hn]; simpl; [destruct (String.eqb k k2); reflexivity|]. rewrite IH.
    destruct (String.eqb_spec k' k2) as [->|]; [|reflexivity].
    destruct (String.eqb_spec k k2) as [->|]; [now elim Hn | reflexivity].
  Qed.
  Lemma get_del (d : dict) k k2 : get V (del V d k) k2 = if String.eqb k k2 then None else get V d k2.
  Proof.
    induction d as [|[k' v'] d IH]; simpl; [destruct (String.eqb k k2); reflexivity|].
    destruct (String.eqb_spec k' k) as [->|Hn]; simpl; rewrite IH; [destruct (String.eqb k k2); reflexivity|].
    destruct (String.eqb_spec k' k2) as [->|]; [|reflexivity].
    destruct (String.eqb_spec k k2) as [->|]; [now elim Hn | reflexivity].
  Qed.

  Lemma get_del_all rs : forall (d : dict) k,
    get V (del_all V rs d) k = if existsb (String.eqb k) (map fst rs) then None else get V d k.
  Proof.
    unfold del_all. induction rs as [|[s t] rs IH]; intros d k; simpl; [reflexivity|].
    rewrite IH, get_del, (String.eqb_sym k s). destruct (String.eqb s k), (existsb _ _); reflexivity.
  Qed.

  Lemma get_set_all (pars0 : dict) rs : forall (d : dict) k,
    Forall (fun st => get V pars0 (fst st) <> None) rs ->
    get V (set_all V pars0 rs d) k =
    match find (fun st => String.eqb (snd st) k) (rev rs) with
    | Some st => get V pars0 (fst st)
    | None => get V d k
    end.
  Proof.
    unfold set_all. induction rs as [|[s t] rs IH] using rev_ind; intros d k Hp; simpl; [reflexivity|].
    apply Forall_app in Hp. destruct Hp as [Hp Hx]. inversion Hx as [|? ? Hs _]; subst. simpl in Hs.
    rewrite fold_left_app, rev_app_distr. simpl. destruct (get V pars0 s) as [v|] eqn:Eg; [|congruence].
    rewrite get_set. destruct (String.eqb t k); [symmetry; exact Eg | apply IH, Hp].
  Qed.
  Lemma present_sources (pars : dict) rs :
    Forall (fun st => get V pars (fst st) <> None) (present V pars rs).
  Proof.
    unfold present. apply Forall_forall. intros st Hin. apply filter_In in Hin.
    destruct Hin as [_ Hb]. apply andb_true_iff in Hb. destruct Hb as [Hm _].
    unfold mem in Hm. destruct (get V pars (fst st)); congruence.
  Qed.

  (* simultaneous substitution.  [find] runs on [rev rs] because set_all writes in list order: where two present
     renamings share a target (nothing in _convert_pars forbids it), the last one wins *)
  Definition spec (pars : dict) (rs : list (string * string)) (k : string) : option V :=
    match find (fun st => String.eqb (snd st) k) (rev rs) with
    | Some st => get V pars (fst st)
    | None => if existsb (String.eqb k) (map fst rs) then None else get V pars k
    end.

  Lemma spec_nontarget (pars : dict) rs k : ~ In k (map snd rs) ->
    spec pars rs k = if existsb (String.eqb k) (map fst rs) then None else get V pars k.
  Proof.
    intros H. unfold spec. destruct (find _ _) as [[s t]|] eqn:E; [|reflexivity].
    apply find_some in E. destruct E as [Hin Hb]. apply String.eqb_eq in Hb. cbn [snd] in Hb. subst t.
    elim H. apply in_rev in Hin. exact (in_map snd _ _ Hin).
  Qed.

  Lemma spec_target (pars : dict) rs s t : NoDup (map snd rs) -> In (s, t) rs -> spec pars rs t = get V pars s.
  Proof.
    intros Hnd Hin. unfold spec. apply NoDup_rev in Hnd. rewrite <- map_rev in Hnd. apply in_rev in Hin.
    induction (rev rs) as [|[s' t'] l IH]; simpl in *; [contradiction|].
    inversion Hnd as [|? ? Hni Hnd']; subst. destruct Hin as [Heq|Hin].
    - inversion Heq; subst. rewrite String.eqb_refl. reflexivity.
    - destruct (String.eqb_spec t' t) as [->|_]; [|apply IH; auto].
      elim Hni. exact (in_map snd l (s, t) Hin).
  Qed.

  Lemma setdefault_keeps (d : dict) k v k2 w : get V d k2 = Some w -> get V (setdefault V d k v) k2 = Some w.
  Proof.
    unfold setdefault, mem. intros H. destruct (get V d k) eqn:E; auto. rewrite get_set.
    destruct (String.eqb_spec k k2) as [->|]; [congruence | exact H].
  Qed.
End P.

(* Targets are new ++ dot.  A name without "." followed by a suffix that is empty or starts with "." splits in one way
   only, so the targets of a row are distinct as soon as its new names are: the check over the table is quadratic in
   the names, not in names x suffixes. *)
Definition dotted (d : string) : bool := match d with String c _ => Ascii.eqb c "." | EmptyString => true end.
Fixpoint nodot (s : string) : bool := match s with String c r => negb (Ascii.eqb c ".") && nodot r | EmptyString => true end.

Lemma app_dot_inj n1 : forall n2 d1 d2, nodot n1 = true -> nodot n2 = true -> dotted d1 = true -> dotted d2 = true ->
  n1 ++ d1 = n2 ++ d2 -> n1 = n2 /\ d1 = d2.
Proof.
  induction n1 as [|c n1 IH]; intros [|c' n2] d1 d2 H1 H2 D1 D2 E; simpl in *.
  - auto.
  - subst d1. simpl in D1. rewrite D1 in H2. discriminate.
  - subst d2. simpl in D2. rewrite D2 in H1. discriminate.
  - injection E as -> E. apply andb_true_iff in H1, H2. destruct (IH n2 d1 d2) as [-> ->]; tauto.
Qed.

Definition news (mapping : list (string * option string)) : list string :=
  flat_map (fun row => match row with (new, Some old) => if String.eqb old new then [] else [new] | _ => [] end) mapping.

Lemma targets_news dots mapping :
  map snd (renames dots mapping) = map (fun nd => fst nd ++ snd nd) (list_prod (news mapping) dots).
Proof.
  unfold renames, news. induction mapping as [|[new [old|]] r IH]; simpl; trivial.
  rewrite map_app, IH. destruct (String.eqb old new); simpl; trivial. rewrite map_app, !map_map. reflexivity.
Qed.

Lemma NoDup_targets dots mapping :
  nodupb dots && forallb dotted dots = true -> nodupb (news mapping) && forallb nodot (news mapping) = true ->
  NoDup (map snd (renames dots mapping)).
Proof.
  intros Hdots Hnews. rewrite andb_true_iff, forallb_forall in Hdots, Hnews.
  destruct Hdots as [Hd Hdd], Hnews as [Hn Hnn].
  rewrite targets_news. apply NoDup_map_inj_in; [|apply NoDup_list_prod; apply nodupb_NoDup; trivial].
  intros [n d] [n' d'] H H' E. apply in_prod_iff in H, H'. destruct H as [Hin Hid], H' as [Hin' Hid'].
  destruct (app_dot_inj n n' d d' (Hnn n Hin) (Hnn n' Hin') (Hdd d Hid) (Hdd d' Hid') E) as [-> ->]. reflexivity.
Qed.

