From Coq Require Import List Arith Bool Lia.
Import ListNotations.
From SM Require Import C17.Model.

Section P.
  Variable Src : Type.
  Variable gen : nat -> nat -> nat -> nat -> Src.
  Variable tag : Src -> nat.
  Hypothesis tag_injective : forall a b, tag a = tag b -> a = b.

  Notation st := (st Src).
  Notation step := (step Src gen tag true).
  Notation run := (run Src gen tag true).

  (* the idea of the cache: a stamp never runs ahead of its file, and an entry is trusted only when its stamp equals the
     file's time (an older one is refreshed by the load) *)
  Definition entry_ok (f : file) (stamp x : nat) : Prop := stamp <= mtime f /\ (stamp = mtime f -> x = txt f).

  Definition Inv (s : st) : Prop :=
    match mcache Src s with
    | Some (x, sm, sc) => entry_ok (fm Src s) sm x /\ sc <= mtime (fc Src s)
    | None => True
    end /\
    match hcache Src s with Some (time, x) => entry_ok (fh Src s) time x | None => True end /\
    match kcache Src s with Some (time, x) => entry_ok (fk Src s) time x | None => True end /\
    Forall (fun kv => tag (snd kv) = fst (fst kv)) (dlls Src s).

  Definition mod_ok (s : st) (e : option (nat * nat * nat)) : Prop :=
    match e with Some (x, sm, sc) => entry_ok (fm Src s) sm x /\ sc <= mtime (fc Src s) | None => True end.
  Definition tpl_ok (f : file) (e : option (nat * nat)) : Prop :=
    match e with Some (time, x) => entry_ok f time x | None => True end.
  Lemma inv_conjuncts s : Inv s <->
    mod_ok s (mcache Src s) /\ tpl_ok (fh Src s) (hcache Src s) /\ tpl_ok (fk Src s) (kcache Src s) /\
    Forall (fun kv => tag (snd kv) = fst (fst kv)) (dlls Src s).
  Proof. reflexivity. Qed.

  Lemma inv_init m c h k : Inv (init Src m c h k).
  Proof. unfold Inv, init; simpl. repeat split; auto. Qed.

  Lemma lookup_in k l b : lookup Src k l = Some b -> In (k, b) l.
  Proof.
    destruct k as [t bits]. induction l as [|[[t' bits'] s'] l IH]; simpl; [discriminate|].
    destruct ((t' =? t) && (bits' =? bits)) eqn:E; intros H; [|right; exact (IH H)].
    apply andb_true_iff in E. destruct E as [->%Nat.eqb_eq ->%Nat.eqb_eq]. injection H as ->. left. reflexivity.
  Qed.

  Lemma template_current cache f :
    tpl_ok f cache -> tpl_ok f (Some (template cache f)) /\ snd (template cache f) = txt f.
  Proof.
    unfold tpl_ok, template, entry_ok. destruct cache as [[time x]|]; simpl; [|intros _; repeat split; auto].
    intros [H1 H2]. destruct (Nat.ltb_spec time (mtime f)) as [Hlt|Hge]; simpl; repeat split; auto.
    (* the entry is kept: its stamp is not earlier than the file's time, hence equal to it *)
    apply H2. lia.
  Qed.

  Lemma module_current (s : st) :
    mod_ok s (mcache Src s) ->
    mod_ok s (Some (module Src true s)) /\ fst (fst (module Src true s)) = txt (fm Src s).
  Proof.
    unfold mod_ok, module, stamps, entry_ok.
    destruct (mcache Src s) as [[[x sm] sc]|]; simpl; [|intros _; repeat split; auto]. intros [[H1 H2] H3].
    destruct ((sm <? mtime (fm Src s)) || (sc <? mtime (fc Src s))) eqn:E; simpl; repeat split; auto.
    apply orb_false_iff in E. destruct E as [E%Nat.ltb_ge _]. apply H2. lia.
  Qed.

  Lemma load_result (s : st) bits s' out :
    Inv s -> step s (Load bits) = (s', Some out) ->
    out = (txt (fm Src s), gen (txt (fm Src s)) (txt (fc Src s)) (txt (fh Src s)) (txt (fk Src s))).
  Proof.
    intros [Hm [Hh [Hk Hd]]]%inv_conjuncts Hstep.
    rewrite <- (proj2 (module_current s Hm)), <- (proj2 (template_current _ _ Hh)), <- (proj2 (template_current _ _ Hk)).
    unfold Model.step in Hstep.
    destruct (lookup Src _ (dlls Src s)) as [built|] eqn:El; injection Hstep as _ <-; [|reflexivity].
    (* a cached library carries the tag of what it was built from, and the tag identifies the source *)
    apply lookup_in in El. rewrite Forall_forall in Hd. f_equal. apply tag_injective, (Hd _ El).
  Qed.

  Lemma entry_edit f stamp x t time : entry_ok f stamp x -> mtime f < time -> entry_ok (MkFile t time) stamp x.
  Proof. unfold entry_ok; simpl. intros [H1 _] Hlt. lia. Qed.

  Lemma tpl_edit f e t time : tpl_ok f e -> mtime f < time -> tpl_ok (MkFile t time) e.
  Proof. destruct e as [[stamp x]|]; [apply entry_edit | trivial]. Qed.

  Lemma inv_step (s : st) o : Inv s -> advances Src s o = true -> Inv (fst (step s o)).
  Proof.
    intros [Hm [Hh [Hk Hd]]]%inv_conjuncts Ha. apply inv_conjuncts.
    destruct o; simpl in *; try apply Nat.ltb_lt in Ha.
    - (* an edit touches no entry: its own file's is now strictly older than the file *)
      refine (conj _ (conj Hh (conj Hk Hd))).
      destruct (mcache Src s) as [[[x sm] sc]|]; [|exact I]. destruct Hm as [Hm Hc].
      split; [exact (entry_edit _ _ _ _ _ Hm Ha) | exact Hc].
    - refine (conj _ (conj Hh (conj Hk Hd))).
      destruct (mcache Src s) as [[[x sm] sc]|]; [|exact I]. destruct Hm as [Hm Hc]. split; [exact Hm | simpl; lia].
    - exact (conj Hm (conj (tpl_edit _ _ _ _ Hh Ha) (conj Hk Hd))).
    - exact (conj Hm (conj Hh (conj (tpl_edit _ _ _ _ Hk Ha) Hd))).
    - (* a load: each cache holds its refreshed entry; a library that had to be built enters [dlls] under its own tag *)
      pose proof (proj1 (module_current s Hm)) as Hm'.
      pose proof (proj1 (template_current _ _ Hh)) as Hh'. pose proof (proj1 (template_current _ _ Hk)) as Hk'.
      destruct (lookup Src _ (dlls Src s)) as [built|]; simpl.
      + exact (conj Hm' (conj Hh' (conj Hk' Hd))).
      + refine (conj Hm' (conj Hh' (conj Hk' _))). constructor; [reflexivity | exact Hd].
    - exact (conj I (conj I (conj I Hd))).
  Qed.

  Lemma fst_run_cons (s : st) o r : fst (run s (o :: r)) = fst (run (fst (step s o)) r).
  Proof. simpl. destruct (step s o) as [s1 out]. simpl. destruct (run s1 r). reflexivity. Qed.

  Lemma inv_run ops : forall s0 : st, Inv s0 -> advancing Src gen tag true s0 ops = true -> Inv (fst (run s0 ops)).
  Proof.
    induction ops as [|o r IH]; intros s0 H0 Ha; [exact H0|].
    cbn [advancing] in Ha. apply andb_true_iff in Ha. destruct Ha as [Ha Hr].
    rewrite fst_run_cons. apply IH; [apply inv_step; assumption | exact Hr].
  Qed.

End P.

(* the witnesses of C17_newest_stamp_refuted and C17_definition_only_edit_example; [tagW] is injective as long as
   c, h, k < 7, which their texts are *)
Definition SrcW := (nat * nat * nat * nat)%type.
Definition genW (m c h k : nat) : SrcW := (m, c, h, k).
Definition tagW (s : SrcW) : nat := let '(m, c, h, k) := s in ((m * 7 + c) * 7 + h) * 7 + k.
Definition witness_init := init SrcW (MkFile 3 1) (MkFile 5 9) (MkFile 0 0) (MkFile 0 0).
Definition witness_ops := [Load 64; EditM 4 2].
(* two model texts that differ only in a default, m and m + 20, generate the same source *)
Definition genD (m c h k : nat) : SrcW := (Nat.modulo m 20, c, h, k).
