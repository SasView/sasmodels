(* The on-disk name of a compiled library (kerneldll.dll_name / make_dll):
   "sas" ++ bits ++ "_" ++ model id ++ "_" ++ tag(source)  (+ architecture suffix and extension);
   (tag, bits) is the cache key of C17/Model.v. *)
From Coq Require Import String List.
Import ListNotations.
Open Scope string_scope.

Definition lib_basename (bits id tagstr : string) : string := "sas" ++ bits ++ "_" ++ id ++ "_" ++ tagstr.

Lemma append_split (a b c d : string) : String.length a = String.length b -> a ++ c = b ++ d -> a = b /\ c = d.
Proof.
  revert b. induction a as [|x a IH]; intros [|y b] Hl H; simpl in *; try discriminate.
  - auto.
  - injection Hl as Hl. injection H as -> H. destruct (IH b Hl H) as [-> ->]. auto.
Qed.

Lemma append_cancel_l (s a b : string) : s ++ a = s ++ b -> a = b.
Proof. intros H. exact (proj2 (append_split s s a b eq_refl H)). Qed.

Definition precisions : list string := ["32"; "64"; "128"].
(* executable check used by the correspondence: observed file names against the model *)
Definition name_ok (c : string * string * string * string * string) : bool :=
  let '(bits, id, t, suffix, observed) := c in String.eqb (lib_basename bits id t ++ suffix) observed.
