(* Plug-ins built on plug-ins: the dependency bookkeeping of custom/__init__.py
   (load_custom_kernel_module, need_reload, _MODULE_DEPENDS, _MODULE_DEPENDS_STACK, _MODULE_CACHE).

   Modules 0..n form a chain: module i is built on module i+1 (core.reparameterize(path_of(i+1), ..., __file__)),
   module n stands alone; the file of module i is file i.  Loading module i, when it has to be (re)loaded, resets its
   dependency set to {i}, executes its text - which loads module i+1 with i on the stack -, adds the C sources the
   module lists (source = [...]: [srcs i], files like any other) and stamps every dependency with its current time.  Whether or not the
   child had to be reloaded, it hands its whole dependency set to the module on top of the stack ([always] = true: the
   hand-off stands after the reload branch, as in the code).

   Restrictions of this model (stated in DESIGN.md): what a module is built on and which C sources it lists do not
   change with edits, and a module is built on at most one other. *)
From Coq Require Import Arith List Bool Lia.
Import ListNotations.
From SM Require Import Base.Lists.

Record state := { deps : nat -> option (list nat); stamps : nat -> option (list (nat * nat)) }.

Definition init : state := {| deps := fun _ => None; stamps := fun _ => None |}.
Definition get_deps (st : state) (i : nat) : list nat := match deps st i with Some d => d | None => [i] end.
Fixpoint lookup (l : list (nat * nat)) (f : nat) : option nat :=
  match l with [] => None | (g, t) :: r => if Nat.eqb g f then Some t else lookup r f end.
(* cache_times.get(p, -1) < os.path.getmtime(p) *)
Definition stale_file (mt : nat -> nat) (st : state) (i f : nat) : bool :=
  match stamps st i with
  | Some l => match lookup l f with Some t => Nat.ltb t (mt f) | None => true end
  | None => true
  end.
Definition need_reload (mt : nat -> nat) (st : state) (i : nat) : bool := existsb (stale_file mt st i) (get_deps st i).

Definition upd {A} (m : nat -> A) (i : nat) (v : A) : nat -> A := fun j => if Nat.eqb j i then v else m j.
Definition set_deps (st : state) (i : nat) (d : list nat) : state := {| deps := upd (deps st) i (Some d); stamps := stamps st |}.
Definition set_stamps (st : state) (i : nat) (l : list (nat * nat)) : state := {| deps := deps st; stamps := upd (stamps st) i (Some l) |}.
Definition finish0 (mt : nat -> nat) (i : nat) (sc : state) : state :=
  set_stamps sc i (map (fun f => (f, mt f)) (get_deps sc i)).
Definition finish (srcs : nat -> list nat) (mt : nat -> nat) (i : nat) (sb : state) : state :=
  finish0 mt i (set_deps sb i (get_deps sb i ++ srcs i)).
Definition handoff (st : state) (parent : option nat) (i : nat) : state :=
  match parent with Some w => set_deps st w (get_deps st w ++ get_deps st i) | None => st end.

(* [k] = number of modules below module i in the chain *)
Fixpoint load (srcs : nat -> list nat) (always : bool) (mt : nat -> nat) (k i : nat) (parent : option nat) (st : state) {struct k} : state :=
  let reload := need_reload mt st i in
  let st1 := if reload
             then finish srcs mt i (match k with
                                    | 0 => set_deps st i [i]
                                    | S k' => load srcs always mt k' (S i) (Some i) (set_deps st i [i])
                                    end)
             else st in
  if always || reload then handoff st1 parent i else st1.

(* [Load i] is a top-level load; an edit moves a file's time forward *)
Inductive op := Load (i : nat) | Edit (f : nat) (dt : nat) | Restart.
Definition world := (state * (nat -> nat))%type.
Definition step (srcs : nat -> list nat) (always : bool) (n : nat) (w : world) (o : op) : world :=
  match o with
  | Load i => (load srcs always (snd w) (n - i) i None (fst w), snd w)
  | Edit f dt => (fst w, upd (snd w) f (snd w f + S dt))
  | Restart => (init, snd w)                 (* a new process: empty caches, the files as they are *)
  end.
Definition run (srcs : nat -> list nat) (always : bool) (n : nat) (ops : list op) : world := fold_left (step srcs always n) ops (init, fun _ => 0).

(* [need_reload] for modules 0 and 1 just before every load of a history, to be compared with the code's answers *)
Fixpoint trace (srcs : nat -> list nat) (always : bool) (n : nat) (w : world) (ops : list op) : list (bool * bool) :=
  match ops with
  | [] => []
  | o :: r => (match o with Load _ => [(need_reload (snd w) (fst w) 0, need_reload (snd w) (fst w) 1)] | _ => [] end)
              ++ trace srcs always n (step srcs always n w o) r
  end.
Definition beqb2 (a b : bool * bool) : bool := Bool.eqb (fst a) (fst b) && Bool.eqb (snd a) (snd b).
Fixpoint list_eqb2 (a b : list (bool * bool)) : bool :=
  match a, b with [], [] => true | x :: a', y :: b' => beqb2 x y && list_eqb2 a' b' | _, _ => false end.
(* the numbers, from [k] on, of the cases (history, observed trace) that the chain 0, 1 does not reproduce *)
Fixpoint check_from (srcs : nat -> list nat) (always : bool) (k : nat) (cases : list (list op * list (bool * bool))) : list nat :=
  match cases with
  | [] => []
  | (ops, obs) :: r => (if list_eqb2 (trace srcs always 1 (init, fun _ => 0) ops) obs then [] else [k]) ++ check_from srcs always (S k) r
  end.

Section Proofs.
Variable n : nat.
Variable srcs : nat -> list nat.
(* what module j depends on: the files of the modules j..n and the C sources any of them lists *)
Definition Clo (j f : nat) : Prop := j <= f <= n \/ exists m, j <= m <= n /\ In f (srcs m).
Lemma clo_step j f : Clo j f -> f = j \/ In f (srcs j) \/ Clo (S j) f.
Proof.
  intros [H|[m [Hm Hin]]].
  - destruct (Nat.eq_dec f j) as [->|Hne]; [left; reflexivity | right; right; left; lia].
  - destruct (Nat.eq_dec m j) as [->|Hne]; [right; left; exact Hin | right; right; right; exists m; split; [lia|exact Hin]].
Qed.

Definition SelfIn (st : state) : Prop := forall j, In j (get_deps st j).
(* only from module i on: the modules on the stack while module i is loaded are among the j < i; their dependency sets
   have been reset and are not complete yet, while their stamps may still be those of an earlier load *)
Definition InvFrom (i : nat) (st : state) : Prop :=
  forall j, i <= j -> stamps st j <> None -> forall f, Clo j f -> In f (get_deps st j).
Definition NotAhead (mt : nat -> nat) (st : state) : Prop :=
  forall j l f t, stamps st j = Some l -> lookup l f = Some t -> t <= mt f.

Lemma upd_same {A} (m : nat -> A) i v : upd m i v i = v.
Proof. unfold upd. rewrite Nat.eqb_refl. reflexivity. Qed.
Lemma upd_other {A} (m : nat -> A) i v j : j <> i -> upd m i v j = m j.
Proof. unfold upd. intros H. apply Nat.eqb_neq in H. rewrite H. reflexivity. Qed.

Lemma get_deps_set_same st i d : get_deps (set_deps st i d) i = d.
Proof. unfold get_deps, set_deps; cbn. rewrite upd_same. reflexivity. Qed.
Lemma get_deps_set_other st i d j : j <> i -> get_deps (set_deps st i d) j = get_deps st j.
Proof. intros H. unfold get_deps, set_deps; cbn. rewrite upd_other by exact H. reflexivity. Qed.
Lemma deps_set_other st i d j : j <> i -> deps (set_deps st i d) j = deps st j.
Proof. intros H. unfold set_deps; cbn. apply upd_other; exact H. Qed.

Lemma selfin_set_deps st i d : SelfIn st -> In i d -> SelfIn (set_deps st i d).
Proof.
  intros Hs Hi j. destruct (Nat.eq_dec j i) as [->|Hj].
  - rewrite get_deps_set_same. exact Hi.
  - rewrite get_deps_set_other by exact Hj. apply Hs.
Qed.
Lemma invfrom_set_deps k st i d : i < k -> InvFrom k st -> InvFrom k (set_deps st i d).
Proof. intros Hik Hinv j Hkj Hst f Hf. rewrite get_deps_set_other by lia. exact (Hinv j Hkj Hst f Hf). Qed.

Lemma lookup_map mt l f : In f l -> lookup (map (fun g => (g, mt g)) l) f = Some (mt f).
Proof.
  induction l as [|g l IH]; cbn; intros H; [contradiction|].
  destruct (Nat.eqb_spec g f) as [->|Hne]; [reflexivity|].
  destruct H as [H|H]; [contradiction | exact (IH H)].
Qed.
Lemma lookup_map_inv mt l f t : lookup (map (fun g => (g, mt g)) l) f = Some t -> t = mt f.
Proof.
  induction l as [|g l IH]; cbn; intros H; [discriminate|].
  destruct (Nat.eqb_spec g f) as [->|_]; [congruence | exact (IH H)].
Qed.

Lemma get_deps_finish0 mt i sb j : get_deps (finish0 mt i sb) j = get_deps sb j.
Proof. reflexivity. Qed.
Lemma stamps_finish0_same mt i sb : stamps (finish0 mt i sb) i = Some (map (fun f => (f, mt f)) (get_deps sb i)).
Proof. apply upd_same. Qed.
Lemma stamps_finish0_other mt i sb j : j <> i -> stamps (finish0 mt i sb) j = stamps sb j.
Proof. apply upd_other. Qed.

Lemma need_reload_finish mt i sb : need_reload mt (finish0 mt i sb) i = false.
Proof.
  unfold need_reload. rewrite get_deps_finish0. apply existsb_false. intros f Hin.
  unfold stale_file. rewrite stamps_finish0_same, (lookup_map mt _ _ Hin). apply Nat.ltb_irrefl.
Qed.

Lemma not_reload_stamped mt st i : SelfIn st -> need_reload mt st i = false -> stamps st i <> None.
Proof.
  intros Hs Hn Hnone. apply (proj1 (existsb_false _ _)) with (x := i) in Hn; [|apply Hs].
  unfold stale_file in Hn. rewrite Hnone in Hn. discriminate.
Qed.

(* what a load of module i leaves behind: the invariants, module i not stale; the modules below i keep their stamps, and
   their dependency sets too except the parent's, which only grows and now holds everything module i depends on *)
Definition Spec (mt : nat -> nat) (i : nat) (parent : option nat) (st st' : state) : Prop :=
  SelfIn st' /\ InvFrom i st' /\ NotAhead mt st' /\ need_reload mt st' i = false /\
  (forall j, j < i -> stamps st' j = stamps st j /\ (parent <> Some j -> deps st' j = deps st j)) /\
  (forall w, parent = Some w ->
     (forall f, In f (get_deps st w) -> In f (get_deps st' w)) /\ (forall f, Clo i f -> In f (get_deps st' w))).

(* the load of module i without its hand-off, which comes last whether or not the module was reloaded *)
Lemma load_handoff mt k i parent st :
  load srcs true mt k i parent st = handoff (load srcs true mt k i None st) parent i.
Proof. destruct k; reflexivity. Qed.

(* what such a load touches: nothing of the modules j < i.  No invariant is needed for that *)
Definition Below (i : nat) (st st' : state) : Prop :=
  forall j, j < i -> stamps st' j = stamps st j /\ deps st' j = deps st j.

Lemma load_below mt : forall k i st, Below i st (load srcs true mt k i None st).
Proof.
  (* a module that is not stale leaves the state as it is; the two bullets are the stale case, in which every
     write of the load itself is at module i *)
  induction k as [|k IH]; intros i st j Hj; cbn [load orb handoff];
    (destruct (need_reload mt st i); [|split; reflexivity]);
    cbn [finish finish0 set_stamps set_deps stamps deps]; rewrite !upd_other by lia.
  - split; reflexivity.
  - (* the child touches, of the modules j <= i, the dependency set of i alone *)
    rewrite load_handoff. cbn [handoff set_deps stamps deps]. rewrite upd_other by lia.
    destruct (IH (S i) (set_deps st i [i]) j) as [-> ->]; [lia|]. split; [reflexivity | apply deps_set_other; lia].
Qed.

(* what the reload branch - or its absence - leaves *)
Definition Settled (mt : nat -> nat) (i : nat) (st : state) : Prop :=
  SelfIn st /\ InvFrom i st /\ NotAhead mt st /\ need_reload mt st i = false.

Lemma handoff_spec mt i parent st st1 :
  (forall w, parent = Some w -> w < i) -> Below i st st1 -> Settled mt i st1 -> Spec mt i parent st (handoff st1 parent i).
Proof.
  intros Hp Hframe (Hself & Hinv & Hna & Hnr).
  destruct parent as [w|]; cbn [handoff].
  - assert (w < i) as Hw by (apply Hp; reflexivity).
    unfold Spec. refine (conj _ (conj _ (conj _ (conj _ (conj _ _))))).
    + apply selfin_set_deps; [exact Hself | apply in_or_app; left; apply Hself].
    + apply invfrom_set_deps; assumption.
    + exact Hna.
    + unfold need_reload. rewrite get_deps_set_other by lia. exact Hnr.
    + intros j Hj. split.
      * exact (proj1 (Hframe j Hj)).
      * intros Hne. rewrite deps_set_other by congruence. exact (proj2 (Hframe j Hj)).
    + intros w' Hw'. injection Hw' as <-. split.
      * intros f Hf. rewrite get_deps_set_same. apply in_or_app. left.
        unfold get_deps in *. destruct (Hframe w Hw) as [_ Hd]. rewrite Hd. exact Hf.
      * intros f Hf. rewrite get_deps_set_same. apply in_or_app. right.
        apply (Hinv i (le_n i)); [|exact Hf]. apply (not_reload_stamped mt); assumption.
  - unfold Spec. refine (conj Hself (conj Hinv (conj Hna (conj Hnr (conj _ _))))).
    + intros j Hj. split; [exact (proj1 (Hframe j Hj)) | intros _; exact (proj2 (Hframe j Hj))].
    + intros w Hw. discriminate Hw.
Qed.

(* the stamps; [sb] is what the module's text (the child's load) left, with the module's C sources added *)
Lemma finish_spec mt i sb :
  SelfIn sb -> InvFrom (S i) sb -> NotAhead mt sb -> (forall f, Clo i f -> In f (get_deps sb i)) ->
  Settled mt i (finish0 mt i sb).
Proof.
  intros Hself Hinv Hna Hcl. refine (conj _ (conj _ (conj _ _))).
  - exact Hself.
  - intros j Hij Hst f Hf. rewrite get_deps_finish0.
    destruct (Nat.eq_dec j i) as [->|Hj]; [apply Hcl; exact Hf|].
    rewrite stamps_finish0_other in Hst by exact Hj. apply (Hinv j); [lia | exact Hst | exact Hf].
  - intros j l f t Hl Hlk. destruct (Nat.eq_dec j i) as [->|Hj].
    + rewrite stamps_finish0_same in Hl. injection Hl as <-. apply lookup_map_inv in Hlk. lia.
    + rewrite stamps_finish0_other in Hl by exact Hj. apply (Hna j l f t Hl Hlk).
  - apply need_reload_finish.
Qed.

(* the reload branch once the module's text has run, leaving [sb] *)
Lemma reload_spec mt i sb :
  SelfIn sb -> InvFrom (S i) sb -> NotAhead mt sb -> (forall f, Clo (S i) f -> In f (get_deps sb i)) ->
  Settled mt i (finish srcs mt i sb).
Proof.
  intros Hself Hinv Hna Hcl. unfold finish. apply finish_spec.
  - apply selfin_set_deps; [exact Hself | apply in_or_app; left; apply Hself].
  - apply invfrom_set_deps; [lia | exact Hinv].
  - exact Hna.
  - intros f Hf. rewrite get_deps_set_same. apply in_or_app.
    destruct (clo_step i f Hf) as [->|[Hs|Hc]]; [left; apply Hself | right; exact Hs | left; apply Hcl; exact Hc].
Qed.

(* [sa]: the state in which the text of module i starts to run *)
Lemma sa_facts i st : SelfIn st -> InvFrom i st ->
  let sa := set_deps st i [i] in
  SelfIn sa /\ InvFrom (S i) sa.
Proof.
  intros Hself Hinv sa. split.
  - apply selfin_set_deps; [exact Hself | left; reflexivity].
  - apply invfrom_set_deps; [lia | intros j Hj; apply Hinv; lia].
Qed.

Lemma load_spec mt : forall k i parent st,
  i + k = n -> (forall w, parent = Some w -> w < i) ->
  SelfIn st -> InvFrom i st -> NotAhead mt st ->
  Spec mt i parent st (load srcs true mt k i parent st).
Proof.
  (* the hand-off comes last (load_handoff) and its frame is load_below: what is left is that the load without its
     hand-off is Settled, by cases on whether module i was stale *)
  induction k as [|k IH]; intros i parent st Hik Hp Hself Hinv Hna; rewrite load_handoff;
    (apply handoff_spec; [exact Hp | apply load_below |]); cbn [load orb handoff].
  - destruct (need_reload mt st i) eqn:Hnr; [|repeat split; assumption].
    destruct (sa_facts i st Hself Hinv) as (A1 & A2).
    (* the last module of the chain: its text loads nothing *)
    apply reload_spec; [exact A1 | exact A2 | exact Hna |]. intros f [Hf|[m [Hm _]]]; lia.
  - destruct (need_reload mt st i) eqn:Hnr; [|repeat split; assumption].
    destruct (sa_facts i st Hself Hinv) as (A1 & A2).
    destruct (IH (S i) (Some i) (set_deps st i [i])) as (C1 & C2 & C3 & _ & _ & C6);
      [lia | intros w [= <-]; lia | exact A1 | exact A2 | exact Hna |].
    apply reload_spec; [exact C1 | exact C2 | exact C3 | exact (proj2 (C6 i eq_refl))].
Qed.

Definition Good (w : world) : Prop := SelfIn (fst w) /\ InvFrom 0 (fst w) /\ NotAhead (snd w) (fst w).

(* a new process, whatever the files' times are by then *)
Lemma good_fresh mt : Good (init, mt).
Proof.
  unfold Good; cbn. repeat split.
  - intros j. left. reflexivity.
  - intros j _ H. contradiction H. reflexivity.
  - intros j l f t H. discriminate H.
Qed.

Lemma good_init : Good (init, fun _ => 0).
Proof. apply good_fresh. Qed.

Lemma load_top mt i st : i <= n -> Good (st, mt) ->
  let st' := load srcs true mt (n - i) i None st in Good (st', mt) /\ need_reload mt st' i = false.
Proof.
  intros Hi (Hs & Hinv & Ha); cbn in *.
  destruct (load_spec mt (n - i) i None st) as (S1 & S2 & S3 & S4 & S5 & _);
    [lia | discriminate | exact Hs | intros j _; apply Hinv, Nat.le_0_l | exact Ha |].
  refine (conj (conj S1 (conj _ S3)) S4). cbn. intros j _ Hst g Hg. destruct (le_lt_dec i j) as [Hge|Hlt].
  - apply (S2 j Hge Hst g Hg).
  - destruct (S5 j Hlt) as [E1 E2]. unfold get_deps. rewrite E2 by discriminate.
    rewrite E1 in Hst. apply (Hinv j (Nat.le_0_l j) Hst g Hg).
Qed.

Lemma good_step w o : (forall i, o = Load i -> i <= n) -> Good w -> Good (step srcs true n w o).
Proof.
  intros Hle Hw. destruct w as [st mt]. destruct o as [i|f dt|]; cbn [step fst snd].
  - exact (proj1 (load_top mt i st (Hle i eq_refl) Hw)).
  - (* a file's time only moves forward *)
    destruct Hw as (Hs & Hi & Ha). refine (conj Hs (conj Hi _)); cbn in *.
    intros j l g t Hl Hlk. specialize (Ha j l g t Hl Hlk). unfold upd.
    destruct (Nat.eqb_spec g f) as [->|_]; [lia | exact Ha].
  - apply good_fresh.
Qed.

Lemma good_run ops : (forall i, In (Load i) ops -> i <= n) -> Good (run srcs true n ops).
Proof.
  intros Hle. unfold run. apply fold_left_inv_in; [|exact good_init].
  intros w o Ho. apply good_step. intros i ->. apply Hle, Ho.
Qed.

Lemma stale_after_change w i mt' :
  Good w -> (exists f0, Clo i f0 /\ snd w f0 < mt' f0) ->
  need_reload mt' (fst w) i = true.
Proof.
  destruct w as [st mt]. intros (Hs & Hinv & Ha) [f0 [Hf0 Hlt]]. cbn in *.
  apply existsb_exists. unfold stale_file. destruct (stamps st i) as [l|] eqn:El.
  - exists f0. split; [apply (Hinv i (Nat.le_0_l i)); [rewrite El; discriminate | exact Hf0]|].
    destruct (lookup l f0) as [t|] eqn:Elk; [|reflexivity].
    apply Nat.ltb_lt. specialize (Ha i l f0 t El Elk). lia.
  - (* never loaded in this process: stale whatever the times *)
    exists i. split; [apply Hs | reflexivity].
Qed.

Lemma nested_edit_seen ops i :
  (forall j, In (Load j) ops -> j <= n) -> i <= n ->
  let w := run srcs true n (ops ++ [Load i]) in
  need_reload (snd w) (fst w) i = false /\
  forall mt', (forall f, snd w f <= mt' f) -> (exists f0, Clo i f0 /\ snd w f0 < mt' f0) ->
  need_reload mt' (fst w) i = true.
Proof.
  intros Hle Hi w. unfold w, run. rewrite fold_left_app. fold (run srcs true n ops).
  pose proof (good_run ops Hle) as Hg. destruct (run srcs true n ops) as [st mt].
  destruct (load_top mt i st Hi Hg) as [Hw Hnr].
  split; [exact Hnr | intros mt' _; apply stale_after_change; assumption].
Qed.
End Proofs.

(* hand-off inside the reload branch ([always] = false): module 0 does not see the edit of file 1 *)
Lemma nested_inside_refuted :
  let w := run (fun _ => []) false 1 [Load 1; Load 0; Edit 1 0] in need_reload (snd w) (fst w) 0 = false.
Proof. vm_compute. reflexivity. Qed.
(* the same history with the hand-off where the code has it *)
Example nested_example :
  let w := run (fun _ => []) true 1 [Load 1; Load 0; Edit 1 0] in need_reload (snd w) (fst w) 0 = true.
Proof. vm_compute. reflexivity. Qed.
(* with a C source (file 7) listed by the base module: the wrapper, loaded once, sees its edit *)
Example nested_source_example :
  let srcs := fun m => if Nat.eqb m 1 then [7] else [] in
  let w := run srcs true 1 [Load 0; Edit 7 0] in
  need_reload (snd w) (fst w) 0 = true /\ need_reload (snd (run srcs true 1 [Load 0])) (fst (run srcs true 1 [Load 0])) 0 = false.
Proof. vm_compute. split; reflexivity. Qed.
