From Coq Require Import List Arith String.
Import ListNotations.
From SM Require Import Base.Tactics Base.Lists C17.Model C17.Proofs C17.Names.

(* From [init] (empty caches, no cached library), after ANY history of edits to the model file,
   the included C file or either kernel template - each edit advancing the modification time OF THE FILE IT TOUCHES,
   nothing being assumed about the times of different files relative to each other - loads at any precision and
   process restarts, the next load (same process or new) returns the CURRENT definition paired with a library
   compiled from the CURRENT texts (first component: the definition text - parameter table, defaults, limits - which
   an edit can change without changing the generated source; gen is not assumed injective).  Hypothesis: the tag
   identifies the source (checked on every explored history; CRC32 is not injective in general). *)
Theorem C17_load_current :
  forall (Src : Type) (gen : nat -> nat -> nat -> nat -> Src) (tag : Src -> nat),
  (forall a b, tag a = tag b -> a = b) ->
  forall m c h k ops bits,
  advancing Src gen tag true (init Src m c h k) ops = true ->
  let s := fst (run Src gen tag true (init Src m c h k) ops) in
  forall s' out, step Src gen tag true s (Load bits) = (s', Some out) ->
  out = (txt (fm Src s), gen (txt (fm Src s)) (txt (fc Src s)) (txt (fh Src s)) (txt (fk Src s))).
Proof.
  intros Src gen tag Hinj m c h k ops bits Ha s s' out H.
  apply (load_result Src gen tag Hinj s bits s' out); [|exact H]. apply inv_run; [apply inv_init | exact Ha].
Qed.
Print Assumptions C17_load_current.

(* the invariant behind it: every cached library was built from a source carrying its key; a cached
   module/template text never carries a stamp later than its file's time and is current whenever the
   stamp equals it *)
Theorem C17_invariant :
  forall (Src : Type) (gen : nat -> nat -> nat -> nat -> Src) (tag : Src -> nat) ops s0,
  Inv Src tag s0 -> advancing Src gen tag true s0 ops = true -> Inv Src tag (fst (run Src gen tag true s0 ops)).
Proof. intros Src gen tag ops s0. apply inv_run. Qed.
Print Assumptions C17_invariant.

Theorem C17_load_total :
  forall (Src : Type) gen tag pf (s : st Src) bits, exists out, snd (step Src gen tag pf s (Load bits)) = Some out.
Proof. intros. unfold step. destruct (lookup Src _ (dlls Src s)); simpl; eauto. Qed.
Print Assumptions C17_load_total.

(* the module cache of the tree before the repair (one "newest" stamp for all dependencies) does not have
   the property: the C file is newer than the model file, the model file is edited (its own time advances
   from 1 to 2) and the next load in the same process still evaluates the old text; with one stamp per
   dependency the same history evaluates the new text *)
Theorem C17_newest_stamp_refuted :
  advancing SrcW genW tagW false witness_init witness_ops = true /\
  let s := fst (run SrcW genW tagW false witness_init witness_ops) in
  snd (step SrcW genW tagW false s (Load 64)) = Some (3, (3, 5, 0, 0)) /\ txt (fm SrcW s) = 4.
Proof. vm_compute. repeat split. Qed.
Print Assumptions C17_newest_stamp_refuted.
Theorem C17_per_file_stamp_example :
  let s := fst (run SrcW genW tagW true witness_init witness_ops) in
  snd (step SrcW genW tagW true s (Load 64)) = Some (4, (4, 5, 0, 0)).
Proof. vm_compute. reflexivity. Qed.
Print Assumptions C17_per_file_stamp_example.

(* an edit that changes only a default (two definition texts, one generated source): one library, current definition *)
Theorem C17_definition_only_edit_example :
  let s0 := init SrcW (MkFile 6 1) (MkFile 5 1) (MkFile 0 0) (MkFile 0 0) in
  let ops := [Load 64; EditM 46 2] in
  advancing SrcW genD tagW true s0 ops = true /\
  let s := fst (run SrcW genD tagW true s0 ops) in
  snd (step SrcW genD tagW true s (Load 64)) = Some (46, (6, 5, 0, 0)) /\
  List.length (dlls SrcW (fst (step SrcW genD tagW true s (Load 64)))) = 1.
Proof. vm_compute. repeat split. Qed.
Print Assumptions C17_definition_only_edit_example.

(* the staleness decisions of the model are those of the CODE: need_reload / load_custom_kernel_module
   (custom/__init__.py) and load_template (generate.py) of the current tree, read on every run (Gen/C17_code.v):
   one stamp per dependency, "stale iff the stamp is earlier than the file's time" for modules and templates alike.
   Only [code_per_file] is a parameter of the model and takes its place in C17_code_load_current; the two
   comparisons are shown equal to the [<?] that C17/Model.v writes out *)
From SM Require Import Gen.C17_code.
Theorem C17_code_decisions : translated = true ->
  code_per_file = true /\
  (forall stamp mtime, code_module_stale stamp mtime = Nat.ltb stamp mtime) /\
  (forall stamp mtime, code_template_stale stamp mtime = Nat.ltb stamp mtime).
Proof. intros Ht. untranslated Ht. all: repeat split; reflexivity. Qed.
Print Assumptions C17_code_decisions.
Theorem C17_code_load_current : translated = true ->
  forall (Src : Type) (gen : nat -> nat -> nat -> nat -> Src) (tag : Src -> nat),
  (forall a b, tag a = tag b -> a = b) ->
  forall m c h k ops bits,
  advancing Src gen tag code_per_file (init Src m c h k) ops = true ->
  let s := fst (run Src gen tag code_per_file (init Src m c h k) ops) in
  forall s' out, step Src gen tag code_per_file s (Load bits) = (s', Some out) ->
  out = (txt (fm Src s), gen (txt (fm Src s)) (txt (fc Src s)) (txt (fh Src s)) (txt (fk Src s))).
Proof. intros Ht. untranslated Ht. all: exact C17_load_current. Qed.
Print Assumptions C17_code_load_current.

(* plug-ins built on plug-ins (C17.Nested: a chain of modules 0..n, module i built on module i+1).  The place of the
   hand-off is READ from the current text (code_handoff_always): after ANY history, begun with empty caches, of
   top-level loads (of any module of the chain), edits and restarts, module i is not stale right after a load of it
   and, with the caches of that moment, stale under ANY later file times that move a file it depends on (Nested.Clo:
   its own file, the file of a module it is built on - however long ago and by whichever entry that one was loaded -,
   or a C source any of them lists).  Not imported: its init, step, run, Load ... would hide those of C17.Model *)
Require SM.C17.Nested.
Theorem C17_code_nested : translated = true ->
  forall (n : nat) (srcs : nat -> list nat) (ops : list Nested.op) (i : nat),
  (forall j, In (Nested.Load j) ops -> j <= n) -> i <= n ->
  let w := Nested.run srcs code_handoff_always n (ops ++ [Nested.Load i]) in
  Nested.need_reload (snd w) (fst w) i = false /\
  forall mt', (forall f, snd w f <= mt' f) -> (exists f0, Nested.Clo n srcs i f0 /\ snd w f0 < mt' f0) ->
  Nested.need_reload mt' (fst w) i = true.
Proof. intros Ht. untranslated Ht. all: exact Nested.nested_edit_seen. Qed.
Print Assumptions C17_code_nested.
(* with the hand-off inside the reload branch the statement is false (base loaded alone, wrapper loaded, base edited) *)
Theorem C17_nested_inside_refuted :
  let w := Nested.run (fun _ => []) false 1 [Nested.Load 1; Nested.Load 0; Nested.Edit 1 0] in Nested.need_reload (snd w) (fst w) 0 = false.
Proof. exact Nested.nested_inside_refuted. Qed.
Print Assumptions C17_nested_inside_refuted.

(* the cache key is recoverable from the file name of the library: libraries of two different
   (model id, source tag) pairs, or of two precisions, never share a name ("two different generated
   sources or precisions never share a cached library").  The tags are of one length (eight hex digits,
   generate.tag_source); without that, id "a_b" with tag "c" and id "a" with tag "b_c" would share a name *)
Theorem C17_library_name_injective : forall bits id t id' t' : string,
  String.length t = String.length t' ->
  lib_basename bits id t = lib_basename bits id' t' -> id = id' /\ t = t'.
Proof.
  intros bits id t id' t' Hl H. unfold lib_basename in H.
  apply append_cancel_l in H. apply append_cancel_l in H. apply append_cancel_l in H.
  assert (Hlen : String.length (id ++ "_" ++ t) = String.length (id' ++ "_" ++ t')) by (rewrite H; reflexivity).
  rewrite !length_append in Hlen. simpl in Hlen.
  assert (Hid : String.length id = String.length id') by (rewrite Hl in Hlen; apply Nat.add_cancel_r in Hlen; exact Hlen).
  destruct (append_split id id' ("_" ++ t) ("_" ++ t') Hid H) as [-> H2].
  split; [reflexivity|]. simpl in H2. inversion H2. reflexivity.
Qed.
Print Assumptions C17_library_name_injective.
Theorem C17_library_name_precision : forall b b' id t id' t' : string,
  In b precisions -> In b' precisions -> lib_basename b id t = lib_basename b' id' t' -> b = b'.
Proof.
  unfold precisions, lib_basename. simpl.
  intros b b' id t id' t' [<-|[<-|[<-|[]]]] [<-|[<-|[<-|[]]]] H; try reflexivity; simpl in H; inversion H.
Qed.
Print Assumptions C17_library_name_precision.
