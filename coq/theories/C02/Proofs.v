From Coq Require Import List Bool Arith Reals Lra Lia Sorted.
Import ListNotations.
From SM Require Import Base.Num C02.Model.
Local Open Scope R_scope.

Lemma ofnat_INR n : ofnat ROps n = INR n.
Proof.
  unfold ofnat. cbn [add one zero ROps].
  assert (H : forall l a, fold_left (fun x (_ : nat) => x + 1) l a = a + INR (length l)).
  { induction l as [|y l IH]; intros a; simpl length; [simpl; ring|]. simpl fold_left. rewrite IH, S_INR. ring. }
  rewrite H, seq_length. ring.
Qed.

(* the last point, which the code forces to b, is the value the formula gives anyway: the grid is the image of
   0 .. n-1 under i |-> a + i (b-a)/(n-1) *)
Lemma linspace_affine a b n : (2 <= n)%nat ->
  linspace ROps a b n = map (fun i => a + INR i * ((b - a) / INR (n - 1))) (seq 0 n).
Proof.
  intros Hn. unfold linspace. destruct n as [|[|n]]; try lia.
  apply map_ext. intros i. cbn [add mul sub div ROps]. rewrite !ofnat_INR.
  destruct (Nat.eqb_spec i (S (S n) - 1)) as [->|_]; [|reflexivity].
  field. apply not_0_INR. lia.
Qed.

Lemma linspace_length a b n : length (linspace ROps a b n) = n.
Proof. unfold linspace. destruct n as [|[|n]]; auto. rewrite map_length, seq_length. reflexivity. Qed.

Lemma linspace_ends a b n : (2 <= n)%nat -> exists m, linspace ROps a b n = a :: m ++ [b].
Proof.
  intros Hn. rewrite linspace_affine by exact Hn.
  destruct n as [|[|k]]; try lia. assert (Hk : INR (S k) <> 0) by (apply not_0_INR; lia).
  (* the indices are 0, then 1 .. k, then S k *)
  change (seq 0 (S (S k))) with (0%nat :: seq 1 (S k)). rewrite seq_S, map_cons, map_app.
  eexists. f_equal; [|f_equal].
  - simpl. ring.
  - cbn [map]. f_equal. change (1 + k)%nat with (S k). change (S (S k) - 1)%nat with (S k). field. exact Hk.
Qed.

Lemma linspace_in a b n x : a <= b -> (2 <= n)%nat -> In x (linspace ROps a b n) -> a <= x <= b.
Proof.
  intros Hab Hn. rewrite linspace_affine by lia. intros H. apply in_map_iff in H. destruct H as [i [<- Hi]].
  apply in_seq in Hi. assert (Hd : 0 < INR (n - 1)) by (apply lt_0_INR; lia).
  assert (Hi' : 0 <= INR i <= INR (n - 1)) by (split; [apply pos_INR | apply le_INR; lia]).
  assert (Hst : 0 <= (b - a) / INR (n - 1)) by (apply Rle_mult_inv_pos; lra).
  (* b is the image of n - 1, and the step is not negative *)
  replace b with (a + INR (n - 1) * ((b - a) / INR (n - 1))) at 3 by (field; lra).
  split; [|apply Rplus_le_compat_l, Rmult_le_compat_r]; nra.
Qed.

Lemma sorted_map {A B} (R1 : A -> A -> Prop) (R2 : B -> B -> Prop) (f : A -> B) l :
  (forall x y, R1 x y -> R2 (f x) (f y)) -> StronglySorted R1 l -> StronglySorted R2 (map f l).
Proof.
  intros Hf. induction 1 as [|x l _ IH Hx]; simpl; constructor; [exact IH|].
  apply Forall_map. eapply Forall_impl; [|exact Hx]. apply Hf.
Qed.

Lemma sorted_filter {A} (R : A -> A -> Prop) p l : StronglySorted R l -> StronglySorted R (filter p l).
Proof.
  induction 1 as [|x l _ IH Hx]; simpl; [constructor|]. destruct (p x); [constructor|]; auto.
  apply Forall_forall. intros y Hy. apply filter_In in Hy. rewrite Forall_forall in Hx. apply Hx, Hy.
Qed.

Lemma seq_sorted s n : StronglySorted lt (seq s n).
Proof.
  revert s. induction n as [|n IH]; intros s; simpl; constructor; [apply IH|].
  apply Forall_forall. intros y Hy. apply in_seq in Hy. lia.
Qed.

Theorem linspace_sorted a b n : a < b -> (2 <= n)%nat -> StronglySorted Rlt (linspace ROps a b n).
Proof.
  intros Hab Hn. rewrite linspace_affine by exact Hn. apply (sorted_map lt); [|apply seq_sorted].
  intros i j Hij. apply Rplus_lt_compat_l, Rmult_lt_compat_r; [|apply lt_INR, Hij].
  apply Rdiv_lt_0_compat; [lra | apply lt_0_INR; lia].
Qed.

Theorem lin_sorted center sigma nsig npts lb ub : 0 < nsig * sigma -> (2 <= npts)%nat ->
  StronglySorted Rlt (lin ROps center sigma nsig npts lb ub).
Proof.
  intros Hs Hn. apply sorted_filter, (sorted_map Rlt); [cbn [add ROps]; intros; lra|].
  apply linspace_sorted; [cbn [opp mul ROps]; lra | exact Hn].
Qed.

Lemma inlimits_in lb ub l x : In x (inlimits ROps lb ub l) -> In x l /\ lb <= x <= ub.
Proof.
  unfold inlimits. rewrite filter_In, andb_true_iff. cbn [leb ROps]. rewrite !Rleb_true. tauto.
Qed.

Lemma maxT_ge a b : a <= maxT ROps a b /\ b <= maxT ROps a b.
Proof. unfold maxT; cbn [ltb ROps]. destruct (Rltb_spec a b); lra. Qed.

(* lognormal, Schulz: the lower limit is raised to [t] = 1e-8 *)
Lemma lin_raised c s nsig npts lb ub t x : In x (lin ROps c s nsig npts (maxT ROps lb t) ub) -> t <= x.
Proof. intros H. apply inlimits_in in H. pose proof (maxT_ge lb t). lra. Qed.

Theorem degenerate d relative center width nsig npts lb ub :
  (snd (resolve ROps relative width center) = 0 \/ (npts < 2)%nat) ->
  let c := fst (resolve ROps relative width center) in
  lb <= c <= ub -> values ROps (sqrt 3) 1e-8 d relative center width nsig npts lb ub = [c].
Proof.
  intros H c Hc. unfold values. destruct (resolve ROps relative width center) as [c' s]. simpl in *. subst c.
  cbn [eqb leb zero ROps].
  replace (Reqb s 0 || (npts <? 2)%nat) with true
    by (symmetry; rewrite orb_true_iff, Reqb_true, Nat.ltb_lt; exact H).
  rewrite (proj2 (Rleb_true lb c')), (proj2 (Rleb_true c' ub)) by lra. reflexivity.
Qed.

Theorem resolve_relative width center : resolve ROps true width center = (center, width * center).
Proof. reflexivity. Qed.
Theorem resolve_absolute width center : resolve ROps false width center = (0, width).
Proof. reflexivity. Qed.

Theorem boltzmann_density c s x : exp (boltzmann_arg ROps c s x) = exp (- Rabs (x - c) / Rabs s).
Proof. reflexivity. Qed.

(* the lognormal density pdf(x; mu = ln c, s), with its 1/x Jacobian *)
Definition lognormal_pdf (c s x : R) : R := / (x * s * sqrt (2 * PI)) * exp (- (ln x - ln c) * (ln x - ln c) / (2 * s * s)).
