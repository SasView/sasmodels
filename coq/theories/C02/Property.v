From Coq Require Import List Bool Reals Sorted Lra.
Import ListNotations.
From SM Require Import Base.Tactics Base.Num C02.Model C02.Proofs C02.Density Gen.C02_bodies C02.Translated C03.Model C03.Proofs.
Open Scope R_scope.

(* values are strictly increasing for every distribution type, centre, width > 0,
   n-sigma > 0, point count >= 2 and limits *)
Theorem C02_increasing : forall d center sigma nsig npts lb ub, 0 < sigma -> 0 < nsig -> (2 <= npts)%nat ->
  StronglySorted Rlt (grid ROps (sqrt 3) 1e-8 d center sigma nsig npts lb ub).
Proof.
  intros d center sigma nsig npts lb ub Hs Hn Hp. assert (0 < nsig * sigma) by nra.
  destruct d; unfold grid; try (apply lin_sorted; assumption); apply sorted_filter.
  - apply linspace_sorted; [cbn [add sub ROps]; lra | exact Hp].
  - apply lin_sorted; assumption.
Qed.
Print Assumptions C02_increasing.

(* ... lie inside the hard limits (lognormal/Schulz, whose limits the code raises to 1e-8: at or above 1e-8) ... *)
Theorem C02_in_limits : forall d center sigma nsig npts lb ub x,
  In x (grid ROps (sqrt 3) 1e-8 d center sigma nsig npts lb ub) ->
  lb <= x <= ub \/ (1e-8 <= x /\ (d = Lognormal \/ d = Schulz)).
Proof.
  intros d center sigma nsig npts lb ub x. destruct d; unfold grid; intros H.
  (* Gaussian, Uniform, Boltzmann: the grid is what [inlimits] keeps *)
  1, 2, 6: left; exact (proj2 (inlimits_in _ _ _ _ H)).
  - (* Rectangle: a further filter on such a grid *)
    left. apply filter_In in H. exact (proj2 (inlimits_in _ _ _ _ (proj1 H))).
  - right. split; [exact (lin_raised _ _ _ _ _ _ _ _ H) | auto].
  - right. split; [exact (lin_raised _ _ _ _ _ _ _ _ H) | auto].
Qed.
Print Assumptions C02_in_limits.

(* ... and inside the distribution's own support *)
Theorem C02_support_positive : forall d center sigma nsig npts lb ub x, (d = Lognormal \/ d = Schulz) ->
  In x (grid ROps (sqrt 3) 1e-8 d center sigma nsig npts lb ub) -> 0 < x.
Proof.
  intros d center sigma nsig npts lb ub x Hd H. apply Rlt_le_trans with 1e-8; [lra|].
  destruct Hd; subst d; exact (lin_raised _ _ _ _ _ _ _ _ H).
Qed.
Print Assumptions C02_support_positive.
Theorem C02_support_rectangle : forall center sigma nsig npts lb ub x,
  In x (grid ROps (sqrt 3) 1e-8 Rectangle center sigma nsig npts lb ub) -> Rabs (x - center) <= Rabs sigma * sqrt 3.
Proof.
  intros center sigma nsig npts lb ub x H. apply filter_In in H. destruct H as [_ H]. apply Rleb_true in H. exact H.
Qed.
Print Assumptions C02_support_rectangle.
(* for sigma > 0, npts >= 2 ([grid] ignores n-sigma for Uniform: the 0 stands for any value) *)
Theorem C02_support_uniform : forall center sigma npts lb ub x, 0 < sigma -> (2 <= npts)%nat ->
  In x (grid ROps (sqrt 3) 1e-8 Uniform center sigma 0 npts lb ub) -> center - sigma <= x <= center + sigma.
Proof.
  intros center sigma npts lb ub x Hs Hn H. apply inlimits_in in H. destruct H as [H _].
  apply linspace_in in H; [exact H | cbn [add sub ROps]; lra | exact Hn].
Qed.
Print Assumptions C02_support_uniform.

Theorem C02_normalised : forall l, Forall (fun x => 0 <= x) l -> 0 < sumL ROps l ->
  Forall (fun x => 0 <= x) (map (fun x => x / sumL ROps l) l) /\ sumL ROps (map (fun x => x / sumL ROps l) l) = 1.
Proof. intros l H Hp. split; [apply normalised_nonneg; auto | apply normalised_sum1; lra]. Qed.
Print Assumptions C02_normalised.

(* the model's formulas (the code's by C02_code_formulas) are the documented densities, up to a constant factor
   (Gaussian: s <> 0) *)
Theorem C02_gaussian : forall c s x, s <> 0 ->
  exp (gaussian_arg ROps c s x) = exp (- (1/2) * ((x - c) / s) * ((x - c) / s)).
Proof. intros c s x Hs. f_equal. unfold gaussian_arg, two. cbn [add mul sub div opp one ROps]. field. exact Hs. Qed.
Print Assumptions C02_gaussian.
(* lognormal with median = centre: w = sqrt(2 pi) * pdf, for x, s > 0 *)
Theorem C02_lognormal_median_centre : forall c s x, 0 < x -> 0 < s ->
  exp (lognormal_arg ROps (1/2) (ln x) (ln c) s) / (x * s) = sqrt (2 * PI) * lognormal_pdf c s x.
Proof.
  intros c s x Hx Hs. unfold lognormal_arg, lognormal_pdf. cbn [mul sub div opp ROps].
  assert (Hp : 0 < sqrt (2 * PI)) by (apply sqrt_lt_R0; pose proof PI_RGT_0; lra).
  replace (- (1 / 2) * ((ln x - ln c) / s * ((ln x - ln c) / s))) with (- (ln x - ln c) * (ln x - ln c) / (2 * s * s)) by (field; lra).
  field. repeat split; lra.
Qed.
Print Assumptions C02_lognormal_median_centre.
(* Schulz, with R = x / c and lgz = lnGamma z: the gamma density of shape z and mean c ... *)
Theorem C02_schulz : forall z R c lgz, 0 < z -> 0 < R -> 0 < c ->
  exp (schulz_arg ROps z (ln z) (ln R) R (ln c) lgz) = Rpower z z * Rpower R (z - 1) * exp (- (R * z)) / (c * exp lgz).
Proof.
  intros z R c lgz Hz HR Hc. unfold schulz_arg, Rpower. cbn [add mul sub one ROps]. unfold Rminus.
  rewrite !exp_plus, !exp_Ropp, exp_ln by exact Hc. field.
  pose proof (exp_pos (R * z)). pose proof (exp_pos lgz). repeat split; lra.
Qed.
Print Assumptions C02_schulz.
(* ... whose standard deviation c / sqrt z is |sigma| for the z = (c/sigma)^2 of the code *)
Theorem C02_schulz_width : forall c sigma, 0 < c -> sigma <> 0 -> c / sqrt (schulz_z ROps c sigma) = Rabs sigma.
Proof.
  intros c sigma Hc Hs. unfold schulz_z. cbn [mul div ROps]. fold (Rsqr (c / sigma)).
  rewrite sqrt_Rsqr_abs. unfold Rdiv at 2. rewrite Rabs_mult, Rabs_inv, (Rabs_pos_eq c) by lra.
  field. split; [apply Rabs_no_R0; exact Hs | lra].
Qed.
Print Assumptions C02_schulz_width.

(* zero width or fewer than two points: the single central value, when inside the limits; width relative / absolute *)
Theorem C02_degenerate : forall d relative center width nsig npts lb ub,
  (snd (resolve ROps relative width center) = 0 \/ (npts < 2)%nat) ->
  let c := fst (resolve ROps relative width center) in
  lb <= c <= ub -> values ROps (sqrt 3) 1e-8 d relative center width nsig npts lb ub = [c].
Proof. exact degenerate. Qed.
Print Assumptions C02_degenerate.
Theorem C02_width_convention : forall width center,
  resolve ROps true width center = (center, width * center) /\ resolve ROps false width center = (0, width).
Proof. intros; split; [apply resolve_relative | apply resolve_absolute]. Qed.
Print Assumptions C02_width_convention.

(* The tie by regeneration: Gen/C02_bodies.v holds the grid constructions, masks and density formulas of the six
   _weights methods as they are written in the current weights.py (translated term by term on every run).
   They are the model's grids and, for s <> 0 and c <> 0, the model's formulas (no premise: Base/Tactics.v). *)
Theorem C02_code_grids : forall d c s nsig npts lb ub,
  gen_grid d c s nsig npts lb ub = grid ROps (sqrt 3) 1e-8 d c s nsig npts lb ub.
Proof.
  intros d c s nsig npts lb ub. destruct d; unfold gen_grid,
    gen_grid_gaussian, gen_grid_uniform, gen_grid_rectangle, gen_grid_lognormal, gen_grid_schulz, gen_grid_boltzmann, grid, inlimits;
    cbn [add sub mul div opp one absv leb ROps]; rewrite ?maxT_Rmax, ?tiny_eq; reflexivity.
  (* [grid] is unfolded after the gen_grid_*: a placeholder's body is [grid] itself *)
Qed.
Print Assumptions C02_code_grids.
Theorem C02_code_formulas : forall (lgam : R -> R) d x c s lb ub, s <> 0 -> c <> 0 ->
  gen_px lgam d x c s lb ub = model_px lgam d c s x.
Proof.
  intros lgam d x c s lb ub Hs Hc.
  assert (Hsc : Rabs (s / c) <> 0).
  { apply Rabs_no_R0, Rmult_integral_contrapositive_currified; [exact Hs | apply Rinv_neq_0_compat, Hc]. }
  assert (Has : Rabs s <> 0) by apply Rabs_no_R0, Hs.
  destruct d; unfold gen_px,
    gen_px_gaussian, gen_px_uniform, gen_px_rectangle, gen_px_lognormal, gen_px_schulz, gen_px_boltzmann, model_px,
    gaussian_arg, boltzmann_arg, lognormal_arg, lognormal_sig, schulz_arg, schulz_z, two;
    cbn [add sub mul div opp one absv ROps].
  (* text and model are exp of the same rational function of x, c, s, |s|, |s / c| and the values of ln and lgam:
     strip exp (Lognormal: and the division), then [field], whichever way the text writes that function *)
  - f_equal; field; exact Hs.
  - reflexivity.
  - reflexivity.
  - apply (f_equal2 Rdiv); [f_equal|]; field; exact Hsc.
  - (* z stands under ln and lgam too, where [field] does not look: the text's square is made the model's product *)
    replace ((c / s) ^ 2) with (c / s * (c / s)) by ring. f_equal; field; split; assumption.
  - f_equal; field; exact Has.
Qed.
Print Assumptions C02_code_formulas.

(* ... and so are the centre / width resolution and the degenerate case of the base class (Dispersion.get_weights):
   composed with gen_grid as get_weights composes them they are the model's [values].  Inside the bodies of gen_grid
   the translator writes self._linspace and np.linspace as the model's [lin] and [linspace]; the translated text of
   Dispersion._linspace (gen_lin) is [lin] by C02_code_linspace, np.linspace itself is not translated. *)
Theorem C02_code_values : forall d relative center0 width nsig npts lb ub,
  (let '(c, s) := gen_resolve relative width center0 in
   if gen_degenerate s npts then fst (gen_degenerate_result c lb ub) else gen_grid d c s nsig npts lb ub) =
  values ROps (sqrt 3) 1e-8 d relative center0 width nsig npts lb ub.
Proof.
  intros d relative center0 width nsig npts lb ub. unfold values. rewrite code_resolve_is_model.
  destruct (resolve ROps relative width center0) as [c s].
  unfold gen_degenerate, gen_degenerate_result. cbn [eqb leb zero ROps].
  destruct (Reqb s 0 || (npts <? 2)%nat); [destruct (Rleb lb c && Rleb c ub); reflexivity | apply C02_code_grids].
Qed.
Print Assumptions C02_code_values.
Theorem C02_code_linspace : forall c s nsig npts lb ub, gen_lin c s nsig npts lb ub = lin ROps c s nsig npts lb ub.
Proof.
  intros c s nsig npts lb ub. unfold gen_lin, lin, inlimits. cbn [add sub mul opp leb ROps].
  replace ((- nsig) * s) with (- nsig * s) by ring. reflexivity.
Qed.
Print Assumptions C02_code_linspace.

(* what every calculator receives is normalised: the module-level get_weights of the current weights.py returns
   w / sum(w) (Gen/C02_public.v: the return expression evaluated symbolically), so the weights it hands out are
   non-negative and sum to one whenever the raw densities are non-negative with a positive sum *)
From SM Require Import Gen.C02_public.
Theorem C02_code_returned_weights : public_translated = true -> forall w,
  code_returned_weights w = map (fun x => x / sumL ROps w) w.
Proof.
  intros Ht. untranslated Ht.
  all: intros w; unfold code_returned_weights; cbv zeta; rewrite map_id; reflexivity.
Qed.
Print Assumptions C02_code_returned_weights.
Theorem C02_code_normalised : public_translated = true -> forall w, Forall (fun x => 0 <= x) w -> 0 < sumL ROps w ->
  Forall (fun x => 0 <= x) (code_returned_weights w) /\ sumL ROps (code_returned_weights w) = 1.
Proof. intros Ht w H Hp. rewrite (C02_code_returned_weights Ht w). exact (C02_normalised w H Hp). Qed.
Print Assumptions C02_code_normalised.
