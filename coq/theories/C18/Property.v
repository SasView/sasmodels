From Coq Require Import List.
Import ListNotations.
From SM Require Import Base.Tactics C18.Model C18.Proofs C18.Names.

(* For every number of processes, every interleaving of their steps and every
   set of kill points (a killed process is one that is not scheduled again):
   the final cache name never holds a partial library and every load that
   happened saw a complete one. *)
Theorem C18_publish_safe : forall sched, Inv (run Rename sched init).
Proof. intros sched. apply rename_safe_from, inv_init. Qed.
Print Assumptions C18_publish_safe.

(* After any such history, a fresh process run alone through its five steps loads a complete library. *)
Theorem C18_recovers : forall sched p,
  let s := run Rename sched init in
  pc s p = Start -> loaded (run Rename [p; p; p; p; p] s) p = Some Complete.
Proof. intros sched p s. apply recovers_from, C18_publish_safe. Qed.
Print Assumptions C18_recovers.

(* Compiling in place (the code before the repair) is refuted by a two-process
   schedule and by a single kill. *)
Theorem C18_inplace_refuted : exists sched, loaded (run InPlace sched init) 2 = Some Partial.
Proof. exists [1; 1; 2; 2]. reflexivity. Qed.
Print Assumptions C18_inplace_refuted.

Theorem C18_inplace_crash_refuted : exists sched, final (run InPlace sched init) = Partial.
Proof. exists [1; 1]. reflexivity. Qed.
Print Assumptions C18_inplace_crash_refuted.

(* Builds that FAIL rather than vanish - the compiler is killed or errors out, the builder gets SIGINT or a
   handled SIGTERM - unwind through the clean-up clause.  With any mixture of steps and such failures the
   invariant still holds and a fresh process run alone still loads a complete library; a clean-up that renames
   the temporary onto the final name instead of deleting it is refuted. *)
Theorem C18_unwind_safe : forall evs, Inv (erun false evs init).
Proof. intros evs. apply unwind_safe_from, inv_init. Qed.
Print Assumptions C18_unwind_safe.
Theorem C18_unwind_recovers : forall evs p,
  let s := erun false evs init in pc s p = Start -> loaded (run Rename [p; p; p; p; p] s) p = Some Complete.
Proof. intros evs p s. apply recovers_from, C18_unwind_safe. Qed.
Print Assumptions C18_unwind_recovers.
Theorem C18_unwind_publish_refuted : exists evs, final (erun true evs init) = Partial.
Proof. exists [Step 1; Step 1; Abort 1]. reflexivity. Qed.
Print Assumptions C18_unwind_publish_refuted.

(* the temporary NAMES made explicit (C18/Names.v: what the linker and os.replace do to names and files): with
   pairwise distinct temporary names the final name never refers to an incomplete file and every load saw a
   complete library, for every schedule and every set of kill points; one name shared by two builders (a name
   computed once, before fork) is refuted.  The run checks the hypothesis on every real schedule: the output
   names the scripted compiler is given by different builders are pairwise distinct. *)
Theorem C18_distinct_names_safe : forall tname : nat -> nat, (forall p q, tname p = tname q -> p = q) ->
  forall sched, let s := nrun tname sched ninit in
  (fcontent s = Absent \/ fcontent s = Complete) /\ (forall p c, nloaded s p = Some c -> c = Complete).
Proof.
  intros tname Hinj sched s. destruct (names_safe_from tname Hinj ninit sched (ninv_init tname)) as (I1 & _ & I2 & _).
  split; [|exact I2]. unfold fcontent. destruct (nfinal s) as [q|] eqn:E; [right; apply (I1 q E) | left; reflexivity].
Qed.
Print Assumptions C18_distinct_names_safe.

Theorem C18_shared_name_refuted : exists sched, nloaded (nrun (fun _ => 0) sched ninit) 1 = Some Partial.
Proof. exists [1; 2; 1; 2; 1; 1; 1]. reflexivity. Qed.
Print Assumptions C18_shared_name_refuted.

(* the protocol the theorems are about is the one the CODE follows: kerneldll.make_dll of the current tree, read
   as a build protocol on every run (Gen/C18_code.v: where the compiler writes, how the result gets its final name,
   what the clean-up clause does).  In C18_code_unwind_safe only the clean-up clause is the code's: the steps there
   are those of [Rename] (Model.estep), [code_protocol] does not occur in it. *)
From SM Require Import Gen.C18_code.
Theorem C18_code_publish_safe : translated = true -> forall sched, Inv (run code_protocol sched init).
Proof. intros Ht. untranslated Ht. all: exact C18_publish_safe. Qed.
Print Assumptions C18_code_publish_safe.
Theorem C18_code_unwind_safe : translated = true -> forall evs, Inv (erun code_publish_on_unwind evs init).
Proof. intros Ht. untranslated Ht. all: exact C18_unwind_safe. Qed.
Print Assumptions C18_code_unwind_safe.
