(* The rename protocol with the temporary file NAMES made explicit.
   Each builder p compiles to the name [tname p]; the linker removes that name and creates a fresh file (inode)
   which it then fills; os.replace(tname p, final) makes the final name refer to whatever file the temporary name
   refers to AT THAT MOMENT and fails if the name is gone.  The final name therefore aliases a file that its
   creator may still be writing. *)
From Coq Require Import List Arith.
From SM Require Import Base.Lists C18.Model C18.Proofs.

Section Names.
  Variable tname : nat -> nat.

  Record nstate := MkN {
    nfinal : option nat;             (* the final name refers to the file created by this builder *)
    names : nat -> option nat;       (* temporary name -> builder whose file it refers to *)
    ino : nat -> content;            (* content of the file created by each builder *)
    npc : nat -> stage;
    nloaded : nat -> option content
  }.
  Definition ninit : nstate := MkN None (fun _ => None) (fun _ => Absent) (fun _ => Start) (fun _ => None).
  Definition fcontent (s : nstate) : content := match nfinal s with None => Absent | Some q => ino s q end.

  Definition nstep (s : nstate) (p : nat) : nstate :=
    match npc s p with
    | Start => match nfinal s with
               | None => MkN (nfinal s) (names s) (ino s) (upd (npc s) p WriteHalf) (nloaded s)
               | Some _ => MkN (nfinal s) (names s) (ino s) (upd (npc s) p Load) (nloaded s)
               end
    | WriteHalf => MkN (nfinal s) (upd (names s) (tname p) (Some p)) (upd (ino s) p Partial) (upd (npc s) p WriteRest) (nloaded s)
    | WriteRest => MkN (nfinal s) (names s) (upd (ino s) p Complete) (upd (npc s) p Publish) (nloaded s)
    | Publish => match names s (tname p) with
                 | Some q => MkN (Some q) (upd (names s) (tname p) None) (ino s) (upd (npc s) p Load) (nloaded s)
                 | None => MkN (nfinal s) (names s) (ino s) (upd (npc s) p Done) (nloaded s)      (* FileNotFoundError *)
                 end
    | Load => MkN (nfinal s) (names s) (ino s) (upd (npc s) p Done) (upd (nloaded s) p (Some (fcontent s)))
    | Done => s
    end.
  Definition nrun (sched : list nat) (s : nstate) : nstate := fold_left nstep sched s.

  (* stages in which a builder's temporary name refers to its own file / after which it no longer writes *)
  Definition holding (c : stage) : bool := match c with WriteRest | Publish => true | _ => false end.
  Definition past (c : stage) : bool := match c with Load | Done => true | _ => false end.

  (* the first and third conjunct give C18_distinct_names_safe; the second is what the aliasing asks for: the creator
     of the file under the final name is past its writing, the linker will not empty that file again *)
  Definition NInv (s : nstate) : Prop :=
    (forall q, nfinal s = Some q -> ino s q = Complete) /\
    (forall q, nfinal s = Some q -> past (npc s q) = true) /\
    (forall p c, nloaded s p = Some c -> c = Complete) /\
    (forall p, holding (npc s p) = true -> names s (tname p) = Some p) /\
    (forall p, npc s p = Publish -> ino s p = Complete) /\
    (forall p, npc s p = Load -> nfinal s <> None).

  Hypothesis tname_injective : forall p q, tname p = tname q -> p = q.

  (* the one use of injectivity: what a builder's own temporary name refers to is a component of that builder,
     touched by no other *)
  Lemma upd_tname {A} (f : nat -> A) p v q : upd f (tname p) v (tname q) = upd (fun r => f (tname r)) p v q.
  Proof.
    unfold upd at 2. destruct (Nat.eqb_spec q p) as [->|H]; [apply upd_same|].
    apply upd_other. intros E. apply H, tname_injective, E.
  Qed.

  Lemma ninv_init : NInv ninit.
  Proof. unfold NInv, ninit; simpl. repeat split; intros; discriminate. Qed.

  Lemma ninv_step s p : NInv s -> NInv (nstep s p).
  Proof.
    intros (Ifin & Ipast & Ild & Iname & Ipub & Iload). unfold nstep.
    (* as in C18.Proofs.inv_step; new here is Hown: the final name may alias a builder's file, but only one past its
       writing (second conjunct), so the builder that still writes is not the one published *)
    assert (Hown : past (npc s p) = false -> nfinal s <> Some p).
    { intros E H. apply Ipast in H. congruence. }
    pose proof (Iname p) as Hname. pose proof (Ipub p) as Hpub.
    assert (Hload : npc s p = Load -> fcontent s = Complete).
    { intros E. unfold fcontent.
      destruct (nfinal s) as [q|]; [apply Ifin; reflexivity | destruct (Iload p E); reflexivity]. }
    destruct (npc s p) eqn:Ep;
      [ destruct (nfinal s) eqn:Ef                                  (* Start: the lookup *)
      | specialize (Hown eq_refl)                                   (* WriteHalf *)
      | specialize (Hown eq_refl)                                   (* WriteRest *)
      | rewrite Hname by reflexivity; specialize (Hpub eq_refl)     (* Publish *)
      | rewrite Hload by reflexivity                                (* Load *)
      | ].                                                          (* Done *)
    all: unfold NInv; simpl; repeat split; try assumption; try discriminate; intros q; rewrite ?upd_tname; at_q p q.
  Qed.

  Lemma names_safe_from s sched : NInv s -> NInv (nrun sched s).
  Proof. apply fold_left_inv, ninv_step. Qed.
End Names.
