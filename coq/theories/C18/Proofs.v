From Coq Require Import List Arith.
Import ListNotations.
From SM Require Import Base.Lists C18.Model.

(* Invariant of the rename protocol: the two claims of C18_publish_safe (first and third conjunct) and what makes
   them inductive: a process about to publish holds a complete temporary; while a process is about to load, the final
   name is complete. *)
Definition Inv (s : state) : Prop :=
  final s <> Partial /\
  (forall p, pc s p = Publish -> tmp s p = Complete) /\
  (forall p c, loaded s p = Some c -> c = Complete) /\
  (forall p, pc s p = Load -> final s = Complete).

Lemma upd_same {A} (f : nat -> A) p v : upd f p v p = v.
Proof. unfold upd. rewrite Nat.eqb_refl. reflexivity. Qed.
Lemma upd_other {A} (f : nat -> A) p q v : q <> p -> upd f p v q = f q.
Proof. unfold upd. intros H. destruct (Nat.eqb_spec q p); congruence. Qed.

Lemma inv_init : Inv init.
Proof. unfold Inv, init; simpl. repeat split; try discriminate. Qed.

(* one conjunct of the invariant of the new state at a process q, p being the process that moved.  q = p: the updated
   fields read back the new value, and either the stage just given to p contradicts the premise or a fact about p that
   the caller stated beforehand closes the goal.  q <> p: the same conjunct of the old invariant, at q *)
Ltac at_q p q :=
  destruct (Nat.eq_dec q p) as [->|Hqp];
  [rewrite ?upd_same | rewrite ?(upd_other _ p q _ Hqp)];
  intros; try discriminate; try congruence; eauto.

(* what the moving process needs is said first: its temporary is complete when it publishes, the final name is when it
   loads.  [destruct (pc s p)] rewrites the stage in Hpub and Hload too, so [reflexivity] proves their premise *)
Lemma inv_step s p : Inv s -> Inv (step Rename s p).
Proof.
  intros (Hf & Hp & Hl & Hld). unfold step.
  pose proof (Hp p) as Hpub. pose proof (Hld p) as Hload.
  destruct (pc s p) eqn:Epc;
    [ destruct (final s) eqn:Ef        (* Start: the lookup *)
    |                                  (* WriteHalf *)
    |                                  (* WriteRest *)
    | rewrite Hpub by reflexivity      (* Publish *)
    | rewrite Hload by reflexivity     (* Load *)
    | ].                               (* Done *)
  all: unfold Inv; simpl; repeat split; try assumption; try discriminate; intros q; at_q p q.
Qed.

(* a builder that fails between its lookup and its publication ends in Done without having touched the final name, so
   no conjunct speaks of it afterwards; at the other stages [abort] changes nothing *)
Lemma inv_abort s p : Inv s -> Inv (abort false s p).
Proof.
  intros (Hf & Hp & Hl & Hld). unfold abort.
  destruct (pc s p) eqn:Epc; unfold Inv; simpl; repeat split; try assumption; try discriminate; intros q; at_q p q.
Qed.

Lemma rename_safe_from s sched : Inv s -> Inv (run Rename sched s).
Proof. apply fold_left_inv. intros s' p. apply inv_step. Qed.

Lemma unwind_safe_from s evs : Inv s -> Inv (erun false evs s).
Proof. apply fold_left_inv. intros s' [p|p]; [apply inv_step | apply inv_abort]. Qed.

Lemma run_cons pr p r s : run pr (p :: r) s = run pr r (step pr s p).
Proof. reflexivity. Qed.

(* five steps: lookup, first half, rest, publish, load when the library is absent; when it is complete, lookup and
   load, and the three steps that remain do nothing.  Either way a step is computed once the stage the step before
   left for p has been read back ([upd_same]) *)
Theorem recovers_from s p : Inv s -> pc s p = Start ->
  loaded (run Rename [p; p; p; p; p] s) p = Some Complete.
Proof.
  intros [Hf _] Hpc. rewrite run_cons. unfold step. rewrite Hpc.
  destruct (final s) eqn:Ef; [| congruence |].
  all: repeat (rewrite run_cons; unfold step; cbn [pc final tmp loaded]; rewrite ?upd_same).
  all: cbn; apply upd_same.
Qed.
