From Coq Require Import List Reals Lra.
Import ListNotations.
From SM Require Import Base.Num Base.Lists C19.Model.
Open Scope R_scope.

Notation PtR := (Pt (T:=R)).

Fixpoint Rsum (l : list R) : R := match l with [] => 0 | x :: r => x + Rsum r end.
(* [Rsum l] is [fold_right Rplus 0 l] by conversion *)
Lemma sumL_Rsum l : sumL ROps l = Rsum l.
Proof. exact (fold_left_Rplus l). Qed.

Lemma Rsum_map_minus {A} (f g : A -> R) l : Rsum (map f l) - Rsum (map g l) = Rsum (map (fun x => f x - g x) l).
Proof. induction l as [|x l IH]; simpl; [|rewrite <- IH]; ring. Qed.
Lemma Rsum_map_scal {A} a (f : A -> R) l : a * Rsum (map f l) = Rsum (map (fun x => a * f x) l).
Proof. induction l as [|x l IH]; simpl; [|rewrite <- IH]; ring. Qed.

Definition scaleI (a : R) (p : PtR) : PtR := MkPt (p_dq p) (p_q p) (a * p_I p) (p_j0 p).
Definition addI (p1 p2 : PtR) : PtR := MkPt (p_dq p1) (p_q p1) (p_I p1 + p_I p2) (p_j0 p1).

Lemma maxL_ge (l : list R) x : In x l -> x <= maxL ROps l.
Proof.
  destruct l as [|a l]; [intros []|]. intros H. unfold maxL. cbn [hd tl ltb ROps].
  apply (fold_left_ub Rle _ Rle_refl Rle_trans); [|destruct H; auto].
  intros u v. destruct (Rltb_spec u v); lra.
Qed.
Lemma maxL_in (l : list R) : l <> [] -> In (maxL ROps l) l.
Proof.
  destruct l as [|a l]; [congruence|intros _]. unfold maxL. cbn [hd tl].
  revert a. induction l as [|x l IH]; intros a; cbn [fold_left]; [left; reflexivity|].
  destruct (ltb ROps a x); [right; apply IH | destruct (IH a); [left|right; right]; assumption].
Qed.

