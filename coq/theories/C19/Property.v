From Coq Require Import List Reals Lra.
Import ListNotations.
From SM Require Import Base.Tactics Base.Num C19.Model C19.Proofs.
Open Scope R_scope.

(* the returned value is (1/2pi) sum_i [m_i J0(q_i xi_j) - 1] I_i q_i dq_i with m the acceptance mask *)
Theorem C19_value : forall twopi (pts : list (Pt (T:=R))) lam zaccept j, twopi <> 0 ->
  P ROps twopi pts lam zaccept j =
  / twopi * Rsum (map (fun p => ((if accepted ROps twopi (p_q p) lam zaccept then nth j (p_j0 p) 0 else 0) - 1) * p_I p * p_q p * p_dq p) pts).
Proof.
  intros twopi pts lam zaccept j Ht. unfold P, G, G0. rewrite !sumL_Rsum. cbn [sub mul div zero ROps].
  rewrite Rsum_map_minus, Rsum_map_scal. f_equal. apply map_ext. intros p.
  destruct (accepted ROps twopi (p_q p) lam zaccept); field; exact Ht.
Qed.
Print Assumptions C19_value.

Theorem C19_linear_scale : forall twopi (pts : list (Pt (T:=R))) lam zaccept j a, twopi <> 0 ->
  P ROps twopi (map (scaleI a) pts) lam zaccept j = a * P ROps twopi pts lam zaccept j.
Proof.
  intros twopi pts lam zaccept j a Ht.
  rewrite !C19_value, map_map, <- Rmult_assoc, (Rmult_comm a), Rmult_assoc, (Rsum_map_scal a) by exact Ht.
  do 2 f_equal. apply map_ext. intros p. cbn [scaleI p_q p_I p_dq p_j0]. ring.
Qed.
Print Assumptions C19_linear_scale.
Theorem C19_linear_add : forall twopi (pts1 pts2 : list (Pt (T:=R))) lam zaccept j, twopi <> 0 ->
  Forall2 (fun p1 p2 => p_dq p1 = p_dq p2 /\ p_q p1 = p_q p2 /\ p_j0 p1 = p_j0 p2) pts1 pts2 ->
  P ROps twopi (map (fun pp => addI (fst pp) (snd pp)) (combine pts1 pts2)) lam zaccept j =
  P ROps twopi pts1 lam zaccept j + P ROps twopi pts2 lam zaccept j.
Proof.
  intros twopi pts1 pts2 lam zaccept j Ht H. rewrite !C19_value, <- Rmult_plus_distr_l by exact Ht. f_equal.
  induction H as [|p1 p2 l1 l2 [Hd [Hq Hj]] _ IH]; simpl; [ring|].
  rewrite IH, <- Hd, <- Hq, <- Hj. ring.
Qed.
Print Assumptions C19_linear_add.

(* the calculated q values exp(a + i d), d > 0, are positive and increasing *)
Theorem C19_grid : forall a d i, 0 < d -> 0 < exp (a + INR i * d) /\ exp (a + INR i * d) < exp (a + INR (S i) * d).
Proof. intros a d i Hd. split; [apply exp_pos | apply exp_increasing; rewrite S_INR; nra]. Qed.
Print Assumptions C19_grid.

(* a data set with several wavelengths: the acceptance theta_max is turned into ONE q cut ([make_zaccept]: from the
   longest wavelength).  For 0 < 2 pi, 0 <= s = sin(theta_max) and positive wavelengths, every q the transform keeps
   lies inside the acceptance 2 pi/lam s of every wavelength of the set; the cut of a non-empty set is that of a
   member *)
Theorem C19_acceptance : forall twopi lams s q lamj lam, 0 < twopi -> 0 <= s ->
  Forall (fun x => 0 < x) lams -> In lam lams ->
  accepted ROps twopi q lamj (make_zaccept ROps twopi lams s) = true -> q <= twopi / lam * s.
Proof.
  intros twopi lams s q lamj lam Ht Hs Hpos Hin Ha. apply andb_prop, proj2, Rleb_true in Ha.
  eapply Rle_trans; [exact Ha|]. unfold make_zaccept. cbn [div mul ROps].
  assert (Hl : 0 < lam) by (rewrite Forall_forall in Hpos; auto). pose proof (maxL_ge lams lam Hin).
  apply Rmult_le_compat_r; [exact Hs|]. apply Rmult_le_compat_l; [lra|]. apply Rinv_le_contravar; lra.
Qed.
Print Assumptions C19_acceptance.
Theorem C19_acceptance_attained : forall twopi lams s, lams <> [] ->
  exists lam, In lam lams /\ make_zaccept ROps twopi lams s = twopi / lam * s.
Proof. intros twopi lams s H. exists (maxL ROps lams). split; [apply maxL_in, H | reflexivity]. Qed.
Print Assumptions C19_acceptance_attained.

(* the value formula above is that of the CODE: the element formulas regenerated from the current text of
   sasmodels/sesans.py (Gen/C19_code.v; _set_hankel evaluated on symbolic arrays, apply as two dot products)
   are the model's, on the reals and on binary64 alike.  C19/Translated.v says the same of H0_i and H_ij one by
   one; code_P writes both expressions out again and the proof below does not use it: it is required here only so
   that a run checks it too *)
From SM Require Import Gen.C19_code C19.Translated.
Theorem C19_code_is_model : forall (T : Type) (O : Ops T) twopi pts lam zaccept j, translated = true ->
  code_P O twopi pts lam zaccept j = P O twopi pts lam zaccept j.
Proof.
  intros T O twopi pts lam zaccept j Ht. untranslated Ht.
  all: unfold code_P, P, G, G0, C19.Model.sumL; f_equal; f_equal.
  all: apply map_ext; intros p; unfold accepted.
  all: destruct (leb O _ _); destruct (leb O _ _); reflexivity.
Qed.
Print Assumptions C19_code_is_model.
Theorem C19_code_value : forall twopi (pts : list (Pt (T:=R))) lam zaccept j, translated = true -> twopi <> 0 ->
  code_P ROps twopi pts lam zaccept j =
  / twopi * Rsum (map (fun p => ((if accepted ROps twopi (p_q p) lam zaccept then nth j (p_j0 p) 0 else 0) - 1) * p_I p * p_q p * p_dq p) pts).
Proof.
  intros twopi pts lam zaccept j Ht H. rewrite (C19_code_is_model R ROps twopi pts lam zaccept j Ht).
  exact (C19_value twopi pts lam zaccept j H).
Qed.
Print Assumptions C19_code_value.
