From Coq Require Import String List.
Import ListNotations.
From SM Require Import C16.Model C16.Proofs C16.InsertAfter.
Open Scope string_scope.

(* For every value type, every interpretation of the operators and functions,
   every caller environment and every well-formed translation (single
   assignment, no caller parameter assigned, right-hand sides using caller
   parameters, earlier intermediates and unassigned names): the argument the
   generated kernel passes to the base function for a replaced base parameter
   is the value the translation equations give it ... *)
Theorem C16_composition :
  forall (V : Type) (interp : string -> list V -> V) call_pars base_pars (rho glob : string -> V) assigns p e,
  wf V call_pars base_pars assigns = true -> In (p, e) assigns -> memb p base_pars = true ->
  generated_arg V interp call_pars base_pars assigns rho glob p =
  run_translation V interp assigns (env0 V call_pars rho glob) p.
Proof. exact composition. Qed.
Print Assumptions C16_composition.

(* ... and an untouched base parameter receives the caller's value *)
Theorem C16_untouched :
  forall (V : Type) (interp : string -> list V -> V) call_pars base_pars (rho glob : string -> V) assigns p,
  wf V call_pars base_pars assigns = true -> ~ In p (map fst assigns) ->
  generated_arg V interp call_pars base_pars assigns rho glob p = rho p.
Proof. exact untouched. Qed.
Print Assumptions C16_untouched.

(* the validity region of the reparameterised model is the base model's region expressed in the new
   parameters: VALID, as generated, evaluates the base model's validity expression on the base parameters
   the translation produces (replaced ones) or the caller supplies (untouched ones) *)
Theorem C16_valid :
  forall (V : Type) (interp : string -> list V -> V) call_pars base_pars (rho glob : string -> V) assigns valid,
  wf V call_pars base_pars assigns = true ->
  generated_valid V interp call_pars base_pars assigns rho glob valid =
  eval V interp (base_env V interp call_pars base_pars rho glob assigns) valid.
Proof. intros. apply eval_esubst. intros x. apply valid_subs_value. assumption. Qed.
Print Assumptions C16_valid.

Lemma simple_insert_nil P pid pars remove : simple_insert P pid pars [] remove = filter (kept P pid remove) pars.
Proof.
  induction pars as [|p r IH]; simpl; auto. unfold kept at 1.
  destruct (existsb (String.eqb (pid p)) remove); simpl; rewrite IH; reflexivity.
Qed.

(* derived table (b starts at the first removed base parameter): the new parameters take its place as a block
   - nowhere if nothing is removed -, and the kept base parameters stay, in their original order *)
Theorem C16_table_order :
  forall (P : Type) (pid : P -> string) pars ins remove,
  exists a b, pars = (a ++ b)%list /\ Forall (fun p => kept P pid remove p = true) a /\
              simple_insert P pid pars ins remove = (a ++ (match b with [] => [] | _ => ins end) ++ filter (kept P pid remove) b)%list /\
              (match b with [] => True | p :: _ => kept P pid remove p = false end).
Proof.
  intros P pid pars ins remove. induction pars as [|p r (a & b & Hab & Ha & Hs & Hb)]; simpl.
  - exists [], []. repeat split; auto.
  - destruct (existsb (String.eqb (pid p)) remove) eqn:E.
    + assert (Hk : kept P pid remove p = false) by (unfold kept; rewrite E; reflexivity).
      exists [], (p :: r). simpl. rewrite Hk, simple_insert_nil. auto.
    + exists (p :: a), b. simpl. rewrite Hs, <- Hab. repeat split; auto.
      constructor; auto. unfold kept. rewrite E. reflexivity.
Qed.
Print Assumptions C16_table_order.

(* derived table with caller-chosen positions (insert_after): whenever a table is produced, the untouched base
   parameters are exactly the kept ones in their original order and every new parameter occurs exactly once *)
Theorem C16_insert_after_order :
  forall (P : Type) (pid : P -> string) remove group (isnew : P -> bool) pars ins l,
  insert_after P pid remove group pars ins = Some l ->
  Forall (fun p => isnew p = true) ins -> Forall (fun p => isnew p = false) pars ->
  filter (fun p => negb (isnew p)) l = filter (InsertAfter.kept P pid remove) pars /\ Permutation.Permutation (filter isnew l) ins.
Proof. intros P pid remove group isnew. apply insert_after_shape. Qed.
Print Assumptions C16_insert_after_order.

(* a front group (key "") whose first name is not the id of a new parameter is refused
   (None = the ValueError of the implementation) *)
Theorem C16_insert_after_unknown_refused :
  forall (P : Type) (pid : P -> string) remove group pars ins n rest,
  group ""%string = (n :: rest)%list -> (forall p, In p ins -> pid p <> n) -> insert_after P pid remove group pars ins = None.
Proof. intros P pid remove group pars ins n rest Hg Hn. unfold insert_after. rewrite Hg. simpl. rewrite extract_none; auto. Qed.
Print Assumptions C16_insert_after_unknown_refused.
