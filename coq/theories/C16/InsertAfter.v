(* modelinfo._insert_after: the derived table when the caller says where the new parameters go
   ({"old name": "new,new,..."}, "" = at the front).  The three ValueErrors of the Python (a name that is not a new
   parameter, a new parameter used twice, a new parameter never placed) are the [None] results. *)
From Coq Require Import String List Permutation.
Import ListNotations.

Section IA.
  Variable P : Type.
  Variable pid : P -> string.
  Variable remove : list string.
  Variable group : string -> list string.       (* insert_after.get(key).split(",") ; [] when the key is absent *)

  Definition kept (p : P) : bool := negb (existsb (String.eqb (pid p)) remove).

  (* lookup[name], marking it used *)
  Fixpoint extract (n : string) (avail : list P) : option (P * list P) :=
    match avail with
    | [] => None
    | p :: r => if String.eqb (pid p) n then Some (p, r)
                else match extract n r with Some (x, r') => Some (x, p :: r') | None => None end
    end.
  Fixpoint take_group (names : list string) (avail : list P) : option (list P * list P) :=
    match names with
    | [] => Some ([], avail)
    | n :: r => match extract n avail with
                | None => None
                | Some (p, avail') => match take_group r avail' with
                                      | None => None
                                      | Some (t, a) => Some (p :: t, a)
                                      end
                end
    end.
  Fixpoint walk (pars avail : list P) : option (list P * list P) :=
    match pars with
    | [] => Some ([], avail)
    | p :: r => match take_group (group (pid p)) avail with
                | None => None
                | Some (g, avail') => match walk r avail' with
                                      | None => None
                                      | Some (l, a) => Some ((if kept p then [p] else []) ++ g ++ l, a)
                                      end
                end
    end.
  Definition insert_after (pars ins : list P) : option (list P) :=
    match take_group (group ""%string) ins with
    | None => None
    | Some (g0, a0) => match walk pars a0 with
                       | Some (l, []) => Some (g0 ++ l)
                       | _ => None
                       end
    end.

  Lemma extract_perm n avail p r : extract n avail = Some (p, r) -> Permutation avail (p :: r).
  Proof.
    revert p r. induction avail as [|a t IH]; simpl; intros p r H; [discriminate|].
    destruct (String.eqb (pid a) n).
    - injection H as <- <-. apply Permutation_refl.
    - destruct (extract n t) as [[x r']|] eqn:E; [|discriminate]. injection H as <- <-.
      eapply Permutation_trans; [apply perm_skip; apply IH; reflexivity|]. apply perm_swap.
  Qed.
  Lemma take_group_perm names : forall avail g a, take_group names avail = Some (g, a) -> Permutation avail (g ++ a).
  Proof.
    induction names as [|n r IH]; simpl; intros avail g a H.
    - injection H as <- <-. apply Permutation_refl.
    - destruct (extract n avail) as [[p avail']|] eqn:E; [|discriminate].
      destruct (take_group r avail') as [[t a']|] eqn:E2; [|discriminate]. injection H as <- <-.
      eapply Permutation_trans; [apply (extract_perm _ _ _ _ E)|]. apply perm_skip. apply IH. exact E2.
  Qed.

  Variable isnew : P -> bool.     (* classifies the parameters of the new table *)

  (* l all new (b = true) or all old (b = false) *)
  Lemma filter_new b l : Forall (fun p => isnew p = b) l ->
    filter isnew l = (if b then l else []) /\ filter (fun p => negb (isnew p)) l = (if b then [] else l).
  Proof. induction 1 as [|x t Hx _ [IH1 IH2]]; [destruct b; auto|]. simpl. rewrite Hx, IH1, IH2. destruct b; auto. Qed.

  Lemma take_group_new names avail g a : take_group names avail = Some (g, a) -> Forall (fun p => isnew p = true) avail ->
    Permutation avail (g ++ a) /\ filter isnew g = g /\ filter (fun p => negb (isnew p)) g = [] /\ Forall (fun p => isnew p = true) a.
  Proof.
    intros E Hav. pose proof (take_group_perm _ _ _ _ E) as Pg.
    apply (Permutation_Forall Pg), Forall_app in Hav. destruct Hav as [Hg Ha].
    destruct (filter_new true g Hg). auto.
  Qed.

  Lemma walk_shape pars : forall avail l a, walk pars avail = Some (l, a) ->
    Forall (fun p => isnew p = true) avail -> Forall (fun p => isnew p = false) pars ->
    filter (fun p => negb (isnew p)) l = filter kept pars /\ Permutation avail (filter isnew l ++ a).
  Proof.
    induction pars as [|p r IH]; simpl; intros avail l a H Hav Hp.
    - injection H as <- <-. split; auto.
    - destruct (take_group (group (pid p)) avail) as [[g avail']|] eqn:E; [|discriminate].
      destruct (walk r avail') as [[l' a']|] eqn:E2; [|discriminate]. injection H as <- <-.
      inversion Hp as [|? ? Hpn Hr]; subst.
      destruct (take_group_new _ _ _ _ E Hav) as (Pg & Gnew & Gold & Hav').
      destruct (IH avail' l' a' E2 Hav' Hr) as (F1 & F2).
      assert (Hk : Forall (fun q => isnew q = false) (if kept p then [p] else [])) by (destruct (kept p); auto).
      destruct (filter_new false _ Hk) as [Knew Kold].
      rewrite !filter_app, Gold, Gnew, F1, Kold, Knew. cbn [app]. split.
      + destruct (kept p); reflexivity.
      + rewrite <- app_assoc, Pg. apply Permutation_app_head, F2.
  Qed.

  Theorem insert_after_shape pars ins l :
    insert_after pars ins = Some l ->
    Forall (fun p => isnew p = true) ins -> Forall (fun p => isnew p = false) pars ->
    filter (fun p => negb (isnew p)) l = filter kept pars /\ Permutation (filter isnew l) ins.
  Proof.
    unfold insert_after. intros H Hi Hp.
    destruct (take_group (group ""%string) ins) as [[g0 a0]|] eqn:E; [|discriminate].
    destruct (walk pars a0) as [[l' [|x t]]|] eqn:E2; try discriminate. injection H as <-.
    destruct (take_group_new _ _ _ _ E Hi) as (Pg & Gnew & Gold & Ha).
    destruct (walk_shape pars a0 l' [] E2 Ha Hp) as (F1 & F2).
    rewrite !filter_app, Gold, Gnew, F1. split; [reflexivity|].
    rewrite Pg, F2, app_nil_r. reflexivity.
  Qed.

  Lemma extract_none n avail : (forall p, In p avail -> pid p <> n) -> extract n avail = None.
  Proof.
    induction avail as [|a t IH]; simpl; intros H; auto.
    destruct (String.eqb (pid a) n) eqn:E.
    - apply String.eqb_eq in E. exfalso. apply (H a); auto.
    - rewrite IH; auto.
  Qed.

End IA.
