(* The generated kernel against the translation equations.  The C side keeps its values under cname (caller table,
   intermediates, everything else) and TRANSLATION_VARS assigns the intermediates only; the specification runs every
   equation in order over plain names.  Rel relates the two environments and rel_step keeps it along a well-formed
   translation; with the frame lemmas (what neither fold touches) this gives assigned_value, hence [composition]. *)
From Coq Require Import String List Bool.
Import ListNotations.
From SM Require Import Base.Lists C16.Model.
Open Scope string_scope.

Section P.
  Variable V : Type.
  Variable interp : string -> list V -> V.
  Notation expr := (expr V).
  Notation eval := (eval V interp).

  Fixpoint allvars {N} (p : N -> bool) (e : expr N) : bool :=
    match e with
    | Num _ _ _ => true
    | Var _ _ x => p x
    | App _ _ _ args => forallb (allvars p) args
    end.

  (* the induction principle Coq does not generate for the nested type *)
  Lemma expr_ind' {N} (Q : expr N -> Prop) :
    (forall v, Q (Num V N v)) -> (forall x, Q (Var V N x)) ->
    (forall f args, Forall Q args -> Q (App V N f args)) -> forall e, Q e.
  Proof.
    intros Hn Hv Ha. fix IH 1. intros [v|x|f args]; [apply Hn | apply Hv | apply Ha].
    induction args; constructor; [apply IH | assumption].
  Qed.

  Lemma eval_agree {N M} (p : N -> bool) (r : N -> M) (env1 : M -> V) (env2 : N -> V) :
    (forall x, p x = true -> env1 (r x) = env2 x) ->
    forall e, allvars p e = true -> eval env1 (rename V r e) = eval env2 e.
  Proof.
    intros Hag e. induction e as [v|x|f args IH] using expr_ind'; simpl; auto.
    intros H. f_equal. rewrite map_map. apply map_ext_in.
    rewrite Forall_forall in IH. rewrite forallb_forall in H. auto.
  Qed.

  Lemma eval_esubst {N M} (s : N -> expr M) (env1 : M -> V) (env2 : N -> V) :
    (forall x, eval env1 (s x) = env2 x) -> forall e, eval env1 (esubst V s e) = eval env2 e.
  Proof.
    intros Hs e. induction e as [v|x|f args IH] using expr_ind'; simpl; auto.
    f_equal. rewrite map_map. apply map_ext_Forall. exact IH.
  Qed.

  Variables call_pars base_pars : list string.
  Variables rho glob : string -> V.

  (* where the specification starts: the caller's values for its parameters, globals otherwise *)
  Definition env0 (x : string) : V := if memb x call_pars then rho x else glob x.

  Definition usable (lhs defined : list string) (x : string) : bool :=
    memb x call_pars || memb x defined || negb (memb x lhs).

  (* well-formedness, checked along the list; defined = the intermediates assigned so far *)
  Fixpoint wf_from (lhs vars defined : list string) (assigns : list (string * expr string)) : bool :=
    match assigns with
    | [] => true
    | (x, e) :: r => negb (memb x call_pars) && negb (memb x (map fst r)) && negb (memb x defined)
                     && allvars (usable lhs defined) e
                     && wf_from lhs vars (if memb x vars then x :: defined else defined) r
    end.
  Definition wf (assigns : list (string * expr string)) : bool :=
    wf_from (map fst assigns) (variables V call_pars base_pars assigns) [] assigns.

  Lemma memb_In x l : memb x l = true <-> In x l.
  Proof. apply existsb_eqb_In. Qed.

  Lemma memb_cons x y l : memb x (y :: l) = String.eqb x y || memb x l.
  Proof. reflexivity. Qed.

  Lemma wf_from_cons lhs vars defined x e r : wf_from lhs vars defined ((x, e) :: r) = true ->
    memb x call_pars = false /\ memb x (map fst r) = false /\ memb x defined = false /\
    allvars (usable lhs defined) e = true /\ wf_from lhs vars (if memb x vars then x :: defined else defined) r = true.
  Proof. cbn [wf_from]. rewrite !andb_true_iff, !negb_true_iff. intros [[[[H1 H2] H3] H4] H5]. auto. Qed.

  Lemma wf_from_fresh lhs vars y : forall assigns defined,
    wf_from lhs vars defined assigns = true -> memb y defined = true -> memb y (map fst assigns) = false.
  Proof.
    induction assigns as [|[x e] r IH]; intros defined Hwf Hy; [reflexivity|].
    apply wf_from_cons in Hwf. destruct Hwf as (_ & _ & Hnd & _ & Hrest).
    cbn [map fst]. rewrite memb_cons. apply orb_false_iff. split.
    - destruct (String.eqb_spec y x); congruence.
    - apply (IH _ Hrest). destruct (memb x vars); auto. rewrite memb_cons, Hy. apply orb_true_r.
  Qed.

  (* second clause: an assigned name that is not an intermediate is written by the specification's fold but is no C
     variable at all, so nothing relates it *)
  Definition Rel (lhs vars defined : list string) (ce : cname -> V) (se : string -> V) : Prop :=
    (forall x, memb x call_pars = true -> ce (CV x) = se x) /\
    (forall x, memb x lhs = false -> memb x call_pars = false -> ce (COther x) = se x) /\
    (forall x, memb x defined = true -> ce (CVar x) = se x).

  (* the bodies of the folds translation_vars and run_translation, for any vars.  From here on lhs and vars are fixed
     (wf_from and Rel above take them as arguments); [composition] puts in map fst assigns and [variables ..] *)
  Variable lhs vars : list string.
  Definition cstep (e : cname -> V) (a : string * expr string) : cname -> V :=
    if memb (fst a) vars then cupd V e (fst a) (eval e (rename V (id_sub call_pars vars) (snd a))) else e.
  Definition sstep (e : string -> V) (a : string * expr string) : string -> V := supd V e (fst a) (eval e (snd a)).

  Lemma cstep_other ce x e c : c <> CVar x -> cstep ce (x, e) c = ce c.
  Proof.
    intros Hc. unfold cstep. cbn [fst]. destruct (memb x vars); [|reflexivity].
    destruct c as [y|y|y]; try reflexivity. unfold cupd. destruct (String.eqb_spec y x); congruence.
  Qed.
  Lemma cstep_same ce x e : memb x vars = true ->
    cstep ce (x, e) (CVar x) = eval ce (rename V (id_sub call_pars vars) e).
  Proof. intros Hx. unfold cstep, cupd. cbn [fst snd]. rewrite Hx, String.eqb_refl. reflexivity. Qed.
  Lemma sstep_other se x e y : y <> x -> sstep se (x, e) y = se y.
  Proof. intros Hy. unfold sstep, supd. cbn [fst]. destruct (String.eqb_spec y x); congruence. Qed.
  Lemma sstep_same se x e : sstep se (x, e) x = eval se e.
  Proof. unfold sstep, supd. cbn [fst snd]. rewrite String.eqb_refl. reflexivity. Qed.

  Lemma assigned_memb (x : string) (e : expr string) assigns : In (x, e) assigns -> memb x (map fst assigns) = true.
  Proof. intros Hin. apply memb_In. exact (in_map fst _ _ Hin). Qed.

  Lemma cfold_frame c assigns ce :
    match c with CVar x => memb x (map fst assigns) = false | _ => True end -> fold_left cstep assigns ce c = ce c.
  Proof.
    intros Hc. apply (fold_left_inv_in (fun s => s c = ce c)); [|reflexivity].
    intros s [y e] Hin <-. apply cstep_other. intros ->. apply assigned_memb in Hin. congruence.
  Qed.
  Lemma sfold_frame y assigns se : memb y (map fst assigns) = false -> fold_left sstep assigns se y = se y.
  Proof.
    intros Hy. apply (fold_left_inv_in (fun s => s y = se y)); [|reflexivity].
    intros s [x e] Hin <-. apply sstep_other. intros ->. apply assigned_memb in Hin. congruence.
  Qed.

  Lemma cfold_frame_defined assigns defined ce : wf_from lhs vars defined assigns = true ->
    forall c, match c with CVar x => memb x defined = true | _ => True end -> fold_left cstep assigns ce c = ce c.
  Proof. intros Hwf c Hc. apply cfold_frame. destruct c; auto. apply (wf_from_fresh _ _ _ _ _ Hwf Hc). Qed.

  (* intermediates are assigned names and no caller parameters; everything marked defined is an intermediate *)
  Hypothesis vars_lhs : forall x, memb x vars = true -> memb x lhs = true /\ memb x call_pars = false.

  Definition Good (defined : list string) : Prop :=
    (forall x, memb x defined = true -> memb x vars = true).

  Lemma rel_eval defined ce se e :
    Good defined -> Rel lhs vars defined ce se -> allvars (usable lhs defined) e = true ->
    eval ce (rename V (id_sub call_pars vars) e) = eval se e.
  Proof using vars_lhs.
    intros Hg (Hc & Ho & Hd) Hall. apply (eval_agree (usable lhs defined)); [|exact Hall].
    intros x Hx. unfold usable in Hx. unfold id_sub.
    destruct (memb x vars) eqn:Ev.
    - destruct (memb x defined) eqn:Ed; [apply Hd, Ed|].
      destruct (vars_lhs x Ev) as [Hl Hcp]. rewrite Hcp, Hl in Hx. discriminate.
    - destruct (memb x call_pars) eqn:Ec; [apply Hc, Ec|].
      destruct (memb x defined) eqn:Ed; [rewrite (Hg x Ed) in Ev; discriminate|].
      apply negb_true_iff in Hx. apply Ho; auto.
  Qed.

  Lemma rel_step defined ce se x e :
    Good defined -> Rel lhs vars defined ce se ->
    memb x call_pars = false -> memb x lhs = true -> allvars (usable lhs defined) e = true ->
    let defined1 := if memb x vars then x :: defined else defined in
    Good defined1 /\ Rel lhs vars defined1 (cstep ce (x, e)) (sstep se (x, e)).
  Proof using vars_lhs.
    intros Hg HR Hncp Hxl Hall defined1.
    pose proof (rel_eval defined ce se e Hg HR Hall) as Hev.
    destruct HR as (Hc & Ho & Hd).
    assert (Hnew : forall y, memb y defined1 = true ->
                   (y = x /\ memb x vars = true) \/ (y <> x /\ memb y defined = true)).
    { intros y. subst defined1. destruct (String.eqb_spec y x) as [->|Hne].
      - destruct (memb x vars) eqn:Ev; auto. intros Hy. apply Hg in Hy. congruence.
      - destruct (memb x vars); auto. rewrite memb_cons, (proj2 (String.eqb_neq y x) Hne). auto. }
    split; [|repeat split]; intros y.
    - intros Hy. destruct (Hnew y Hy) as [[-> Hv]|[_ Hy']]; auto.
    - intros Hy. rewrite cstep_other, sstep_other by congruence. auto.
    - intros Hl Hcp. rewrite cstep_other, sstep_other by congruence. auto.
    - intros Hy. destruct (Hnew y Hy) as [[-> Hv]|[Hne Hy']].
      + rewrite cstep_same, sstep_same; auto.
      + rewrite cstep_other, sstep_other by congruence. auto.
  Qed.

  (* from related environments, along a well-formed list: the specification's final value of an assigned x that is
     not an intermediate is its renamed right-hand side in the final C environment *)
  Lemma assigned_value : forall assigns defined ce se,
    Good defined -> Rel lhs vars defined ce se ->
    wf_from lhs vars defined assigns = true ->
    (forall a, In a assigns -> memb (fst a) lhs = true) ->
    forall x e, In (x, e) assigns -> memb x vars = false ->
    fold_left sstep assigns se x = eval (fold_left cstep assigns ce) (rename V (id_sub call_pars vars) e).
  Proof using vars_lhs.
    induction assigns as [|[y ey] r IH]; intros defined ce se Hg HR Hwf Hlhs x e Hin Hv; [destruct Hin|].
    pose proof (cfold_frame_defined _ defined ce Hwf) as F.
    apply wf_from_cons in Hwf. destruct Hwf as (Hncp & Hnr & _ & Hall & Hrest).
    destruct Hin as [Heq|Hin].
    - (* assigned here, to eval se e, and not again; the C fold only writes intermediates not yet defined,
         so Rel still holds between its result and se *)
      injection Heq as -> ->.
      assert (HRf : Rel lhs vars defined (fold_left cstep ((x, e) :: r) ce) se).
      { destruct HR as (Hc & Ho & Hd). repeat split; intros z; intros; rewrite F; auto. }
      rewrite (rel_eval defined _ se e Hg HRf Hall).
      cbn [fold_left]. rewrite (sfold_frame _ _ _ Hnr). apply sstep_same.
    - destruct (rel_step defined ce se y ey Hg HR Hncp (Hlhs _ (or_introl eq_refl)) Hall) as [Hg1 HR1].
      apply (IH _ _ _ Hg1 HR1 Hrest (fun a Ha => Hlhs a (or_intror Ha)) x e Hin Hv).
  Qed.

  (* the frame lemmas and assigned_value together: a suffix of the translation run from related environments *)
  Lemma suffix : forall assigns defined ce se,
    Good defined -> Rel lhs vars defined ce se ->
    wf_from lhs vars defined assigns = true ->
    (forall a, In a assigns -> memb (fst a) lhs = true) ->
    let cef := fold_left cstep assigns ce in
    let sef := fold_left sstep assigns se in
    (forall x, cef (CV x) = ce (CV x)) /\ (forall x, cef (COther x) = ce (COther x)) /\
    (forall x, memb x defined = true -> cef (CVar x) = ce (CVar x)) /\
    (forall y, memb y (map fst assigns) = false -> sef y = se y) /\
    (forall x e, In (x, e) assigns -> memb x vars = false -> sef x = eval cef (rename V (id_sub call_pars vars) e)).
  Proof using vars_lhs.
    intros assigns defined ce se Hg HR Hwf Hlhs cef sef.
    pose proof (cfold_frame_defined assigns defined ce Hwf) as F.
    repeat split.
    - intros x. apply (F (CV x) I).
    - intros x. apply (F (COther x) I).
    - intros x. apply (F (CVar x)).
    - intros y. apply sfold_frame.
    - exact (assigned_value assigns defined ce se Hg HR Hwf Hlhs).
  Qed.
End P.

Section Final.
  Variable V : Type.
  Variable interp : string -> list V -> V.
  Variables call_pars base_pars : list string.
  Variables rho glob : string -> V.

  Lemma wf_from_nodup lhs vars : forall assigns defined,
    wf_from V call_pars lhs vars defined assigns = true -> NoDup (map fst assigns).
  Proof.
    induction assigns as [|[x e] r IH]; intros defined H; simpl; [constructor|].
    apply wf_from_cons in H. destruct H as (_ & Hnr & _ & _ & Hrest).
    constructor; [|exact (IH _ Hrest)]. intros Hin. apply memb_In in Hin. congruence.
  Qed.

  Lemma lookup_nodup {A} (l : list (string * A)) p e : NoDup (map fst l) -> In (p, e) l -> lookup p l = Some e.
  Proof.
    induction l as [|[k v] l IH]; simpl; intros Hnd Hin; [contradiction|].
    inversion Hnd as [|? ? Hni Hnd']; subst. destruct Hin as [Heq|Hin].
    - injection Heq as -> ->. rewrite String.eqb_refl. reflexivity.
    - destruct (String.eqb_spec k p) as [->|Hne]; [|auto].
      exfalso. apply Hni. apply in_map_iff. exists (p, e); auto.
  Qed.
  Lemma lookup_none {A} (l : list (string * A)) p : ~ In p (map fst l) -> lookup p l = None.
  Proof.
    induction l as [|[k v] l IH]; simpl; intros H; auto.
    destruct (String.eqb_spec k p) as [->|Hne]; [exfalso; apply H; auto|]. apply IH. intros Hin; apply H; auto.
  Qed.

  Lemma memb_variables assigns x : memb x (variables V call_pars base_pars assigns) = true ->
    memb x (map fst assigns) = true /\ memb x call_pars = false /\ memb x base_pars = false.
  Proof.
    intros Hx. apply memb_In, in_map_iff in Hx. destruct Hx as [a [<- Ha]]. apply filter_In in Ha.
    destruct Ha as [Ha Hb]. apply andb_true_iff in Hb. rewrite !negb_true_iff in Hb.
    split; [apply memb_In, in_map, Ha | exact Hb].
  Qed.

  Lemma subs_assigned assigns p e : NoDup (map fst assigns) -> In (p, e) assigns -> memb p base_pars = true ->
    subs V call_pars base_pars assigns p = rename V (id_sub call_pars (variables V call_pars base_pars assigns)) e.
  Proof.
    intros Hnd Hin Hb. unfold subs. rewrite (lookup_nodup _ p e); auto.
    - rewrite map_rev. apply NoDup_rev, NoDup_map_filter, Hnd.
    - apply -> in_rev. apply filter_In. auto.
  Qed.
  Lemma subs_unassigned assigns p : ~ In p (map fst assigns) -> subs V call_pars base_pars assigns p = Var V cname (CV p).
  Proof.
    intros Hni. unfold subs. rewrite lookup_none; [reflexivity|].
    rewrite map_rev, <- in_rev, in_map_iff. intros [a [Ha Hin]]. apply filter_In in Hin.
    apply Hni, in_map_iff. exists a. split; [exact Ha | apply Hin].
  Qed.

  Lemma translation_vars_fold assigns :
    translation_vars V interp call_pars base_pars assigns rho glob =
    fold_left (cstep V interp call_pars (variables V call_pars base_pars assigns)) assigns (cenv0 V rho glob).
  Proof. reflexivity. Qed.
  Lemma run_translation_fold assigns env : run_translation V interp assigns env = fold_left (sstep V interp) assigns env.
  Proof. reflexivity. Qed.

  Lemma translation_vars_frame assigns c : (forall x, c <> CVar x) ->
    translation_vars V interp call_pars base_pars assigns rho glob c = cenv0 V rho glob c.
  Proof.
    intros Hc. rewrite translation_vars_fold. apply cfold_frame.
    destruct c; auto. destruct (Hc x eq_refl).
  Qed.

  Theorem composition assigns p e :
    wf V call_pars base_pars assigns = true -> In (p, e) assigns -> memb p base_pars = true ->
    generated_arg V interp call_pars base_pars assigns rho glob p =
    run_translation V interp assigns (env0 V call_pars rho glob) p.
  Proof.
    intros Hwf Hin Hbase. unfold generated_arg.
    rewrite (subs_assigned assigns p e (wf_from_nodup _ _ _ _ Hwf) Hin Hbase), translation_vars_fold, run_translation_fold.
    symmetry.
    set (vars := variables V call_pars base_pars assigns).
    assert (Hvl : forall x, memb x vars = true -> memb x (map fst assigns) = true /\ memb x call_pars = false)
      by (intros x Hx; apply memb_variables in Hx; split; apply Hx).
    apply (assigned_value V interp call_pars (map fst assigns) vars Hvl assigns [] (cenv0 V rho glob) (env0 V call_pars rho glob)); auto.
    - intros x Hx. discriminate.
    - unfold Rel, cenv0, env0. repeat split; [intros x Hx|intros x _ Hx|discriminate]; rewrite Hx; reflexivity.
    - intros a Ha. apply memb_In, in_map, Ha.
    - destruct (memb p vars) eqn:E; [|reflexivity]. apply memb_variables in E. destruct E as (_ & _ & E). congruence.
  Qed.

  Theorem untouched assigns p :
    wf V call_pars base_pars assigns = true -> ~ In p (map fst assigns) ->
    generated_arg V interp call_pars base_pars assigns rho glob p = rho p.
  Proof.
    intros _ Hni. unfold generated_arg. rewrite subs_unassigned by exact Hni.
    apply (translation_vars_frame assigns (CV p)). discriminate.
  Qed.

  (* the base parameters as the base model sees them *)
  Definition base_env (assigns : list (string * expr V string)) (x : string) : V :=
    if memb x base_pars then
      (if memb x (map fst assigns) then run_translation V interp assigns (env0 V call_pars rho glob) x else rho x)
    else glob x.

  Lemma valid_subs_value assigns x : wf V call_pars base_pars assigns = true ->
    eval V interp (translation_vars V interp call_pars base_pars assigns rho glob) (valid_subs V call_pars base_pars assigns x) =
    base_env assigns x.
  Proof.
    intros Hwf. unfold valid_subs, base_env. destruct (memb x base_pars) eqn:Eb.
    - destruct (memb x (map fst assigns)) eqn:El.
      + apply memb_In, in_map_iff in El. destruct El as [[x' e] [Hx Hin]]. cbn [fst] in Hx. subst x'.
        apply (composition assigns x e); auto.
      + apply (untouched assigns x); auto.
        intros Hin. apply memb_In in Hin. congruence.
    - apply (translation_vars_frame assigns (COther x)). discriminate.
  Qed.
End Final.
