(* Obligations over Gauss-Legendre tables regenerated on every run, those of /repo/sasmodels/models/lib and two
   written by sasmodels.gengauss (finite, exact integer arithmetic, by computation), and the change of variables of
   the orientational average (from C12/Average.v). *)
From Coq Require Import ZArith List Bool Reals.
From Coquelicot Require Import Coquelicot.
From SM Require Import C12.Model Gen.C12_tables C12.Average.
Open Scope Z_scope.

(* nodes strictly increasing in (-1,1) and antisymmetric, weights positive and symmetric (both to 1e-14: the tables
   are 15-digit decimals), and for EVERY k < 2n:  | sum_i w_i z_i^k - int_{-1}^{1} x^k dx | <= 1e-13 *)
Theorem C12_gauss20_exact : well_formed (10 ^ 14) D gauss20 && exact_to_degree (10 ^ 13) D gauss20 = true.
Proof. vm_compute. reflexivity. Qed.
Print Assumptions C12_gauss20_exact.

Theorem C12_gauss76_exact : well_formed (10 ^ 14) D gauss76 && exact_to_degree (10 ^ 13) D gauss76 = true.
Proof. vm_compute. reflexivity. Qed.
Print Assumptions C12_gauss76_exact.

(* the 150-point table is only accurate to 1e-10 (its weights sum to 2 - 3.8e-11) *)
Theorem C12_gauss150_exact : well_formed (10 ^ 10) D gauss150 && exact_to_degree (10 ^ 10) D gauss150 = true.
Proof. vm_compute. reflexivity. Qed.
Print Assumptions C12_gauss150_exact.

(* tables of other sizes are written on demand by sasmodels.gengauss (set_integration_size / sascomp -ngauss=N);
   two sizes that are not multiples of four, generated with the current code on every run: exactly N points
   (GAUSS_N counts no padding), well formed and exact for every degree < 2N, both to 1e-13 *)
Theorem C12_gengauss10_exact :
  (Nat.eqb gengauss10_size 10 && Nat.eqb (length gengauss10) 10 && well_formed (10 ^ 13) D gengauss10 && exact_to_degree (10 ^ 13) D gengauss10) = true.
Proof. vm_compute. reflexivity. Qed.
Print Assumptions C12_gengauss10_exact.
Theorem C12_gengauss31_exact :
  (Nat.eqb gengauss31_size 31 && Nat.eqb (length gengauss31) 31 && well_formed (10 ^ 13) D gengauss31 && exact_to_degree (10 ^ 13) D gengauss31) = true.
Proof. vm_compute. reflexivity. Qed.
Print Assumptions C12_gengauss31_exact.

(* The change of variables (Coquelicot's Riemann integral).  h(u) is the particle-frame function as a function of
   u = cos(alpha), alpha the angle between q and the particle axis: h(u) = g(q sqrt(1-u^2), q u) for a shape of
   revolution, continuous (on all of R, as stated) and even in u.  The uniform average
   over all directions of q, (1/2) int_{-1}^{1} h(u) du (the area element of the sphere is du dphi), equals the
   integral int_0^{pi/2} h(cos a) sin a da that the models' Iq/Fq evaluate with their Gauss-Legendre rule, and the
   half-range integral int_0^1 h(u) du the check's reference uses. *)
Theorem C12_average_forms : forall h : R -> R, (forall u, continuous h u) -> (forall u, h (- u)%R = h u) ->
  (RInt h (-1) 1 / 2 = RInt (fun a => h (cos a) * sin a) 0 (PI / 2))%R /\
  (RInt (fun a => h (cos a) * sin a) 0 (PI / 2) = RInt h 0 1)%R.
Proof. intros h Ch He. rewrite (polar_substitution h Ch). split; [apply even_half; assumption | reflexivity]. Qed.
Print Assumptions C12_average_forms.
