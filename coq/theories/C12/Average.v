(* The two substitutions behind C12_average_forms, u = cos a on [0, pi/2] and u |-> -u on [-1, 0],
   both by one lemma for the substitution u = g x with the limits swapped (cos and Ropp decrease). *)
From Coq Require Import Reals Lra.
From Coquelicot Require Import Coquelicot.
Open Scope R_scope.

Lemma RInt_subst_rev (h F g dg : R -> R) a b : (forall u, continuous h u) ->
  (forall x, is_derive g x (dg x) /\ continuous dg x) -> (forall x, F x = - (dg x * h (g x))) ->
  RInt F a b = RInt h (g b) (g a).
Proof.
  intros Ch Hg HF.
  assert (Hc : is_RInt (fun y => scal (dg y) (h (g y))) a b (RInt h (g a) (g b)))
    by (apply (is_RInt_comp (V := R_CompleteNormedModule)); intros; auto).
  rewrite <- (opp_RInt_swap h (g a) (g b)) by (apply ex_RInt_continuous; intros; apply Ch).
  rewrite <- (is_RInt_unique _ _ _ _ Hc), <- RInt_opp by (eexists; exact Hc).
  apply RInt_ext. intros x _. rewrite HF. reflexivity.
Qed.

Lemma polar_substitution (h : R -> R) : (forall u, continuous h u) ->
  RInt (fun a => h (cos a) * sin a) 0 (PI / 2) = RInt h 0 1.
Proof.
  intros Ch. rewrite (RInt_subst_rev h _ cos (fun a => - sin a) 0 (PI / 2) Ch).
  - rewrite cos_PI2, cos_0. reflexivity.
  - intros x. split.
    + auto_derive; [exact I | ring].
    + apply (ex_derive_continuous (fun a => - sin a)). auto_derive. exact I.
  - intros x. ring.
Qed.

Lemma even_half (h : R -> R) : (forall u, continuous h u) -> (forall u, h (- u) = h u) ->
  RInt h (-1) 1 / 2 = RInt h 0 1.
Proof.
  intros Ch Heven.
  assert (Ex : forall a b, ex_RInt h a b) by (intros; apply (ex_RInt_continuous h); intros; apply Ch).
  rewrite <- (RInt_Chasles h (-1) 0 1 (Ex _ _) (Ex _ _)).
  replace (RInt h (-1) 0) with (RInt h 0 1); [unfold plus; simpl; lra|].
  rewrite (RInt_subst_rev h h Ropp (fun _ => -1) 0 1 Ch).
  - f_equal; ring.
  - intros x. split; [auto_derive; [exact I | ring] | apply continuous_const].
  - intros x. rewrite Heven. ring.
Qed.
