From Coq Require Import List Reals Bool.
From SM Require Import C13.Model C13.Proofs Gen.C13_units.

(* if the leaves are homogeneous of the declared degrees ([rescale]), for every mesh with nonzero sums of shell
   volume and of weights and every lam <> 0 the intensity scales by lam^3, R_eff by lam, the two average volumes
   by lam^3 *)
Theorem C13_average_homogeneous : forall lam scale (l : list pt), lam <> 0%R -> sVs l <> 0%R -> sW l <> 0%R ->
  (scale * sF (map (rescale lam) l) / sVs (map (rescale lam) l) = lam ^ 3 * (scale * sF l / sVs l) /\
   sR (map (rescale lam) l) / sW (map (rescale lam) l) = lam * (sR l / sW l) /\
   sVf (map (rescale lam) l) / sW (map (rescale lam) l) = lam ^ 3 * (sVf l / sW l) /\
   sVs (map (rescale lam) l) / sW (map (rescale lam) l) = lam ^ 3 * (sVs l / sW l))%R.
Proof.
  intros lam scale l Hl Hv Hw. destruct (sums_rescale lam l) as [H1 [H2 [H3 [H4 H5]]]].
  rewrite H1, H2, H3, H4, H5. repeat split; field; auto.
Qed.
Print Assumptions C13_average_homogeneous.

Theorem C13_sld_quadratic : forall mu scale (l : list pt), sVs l <> 0%R ->
  (scale * sF (map (rescale_sld mu) l) / sVs (map (rescale_sld mu) l) = mu ^ 2 * (scale * sF l / sVs l))%R.
Proof.
  intros mu scale l Hv. destruct (sums_rescale_sld mu l) as [H1 H2]. rewrite H1, H2. field. auto.
Qed.
Print Assumptions C13_sld_quadratic.

(* over the regenerated unit tables.  The first conjunct, b || negb b, holds of any table: [in_scope] is a total test,
   a shape model is in scope or outside the quantifier.  The content is the second: some model is in scope. *)
Theorem C13_units_classified :
  forallb (fun mu => in_scope (snd mu) || negb (in_scope (snd mu))) shape_units
  && (0 <? length (filter (fun mu => in_scope (snd mu)) shape_units))%nat = true.
Proof. vm_compute. reflexivity. Qed.
Print Assumptions C13_units_classified.
