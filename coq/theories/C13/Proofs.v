From Coq Require Import List Reals.
Import ListNotations.
Open Scope R_scope.

(* a mesh point: (weight, F^2, V_form, V_shell, R_eff) *)
Definition pt := (R * R * R * R * R)%type.
Fixpoint sF (l : list pt) : R := match l with [] => 0 | (w, f, _, _, _) :: r => w * f + sF r end.
Fixpoint sVs (l : list pt) : R := match l with [] => 0 | (w, _, _, vs, _) :: r => w * vs + sVs r end.
Fixpoint sVf (l : list pt) : R := match l with [] => 0 | (w, _, vf, _, _) :: r => w * vf + sVf r end.
Fixpoint sR (l : list pt) : R := match l with [] => 0 | (w, _, _, _, re) :: r => w * re + sR r end.
Fixpoint sW (l : list pt) : R := match l with [] => 0 | (w, _, _, _, _) :: r => w + sW r end.

(* the same mesh with every length multiplied by lam: the leaves are homogeneous
   (F^2 of degree 6, volumes 3, R_eff 1) and the weights do not change
   (relative-width distributions scale with their centre) *)
Definition rescale (lam : R) (p : pt) : pt :=
  let '(w, f, vf, vs, re) := p in (w, lam ^ 6 * f, lam ^ 3 * vf, lam ^ 3 * vs, lam * re).

Lemma sums_rescale lam l :
  sF (map (rescale lam) l) = lam ^ 6 * sF l /\ sVs (map (rescale lam) l) = lam ^ 3 * sVs l /\
  sVf (map (rescale lam) l) = lam ^ 3 * sVf l /\ sR (map (rescale lam) l) = lam * sR l /\ sW (map (rescale lam) l) = sW l.
Proof.
  induction l as [|[[[[w f] vf] vs] re] l IH]; simpl.
  - repeat split; ring.
  - destruct IH as [H1 [H2 [H3 [H4 H5]]]]. rewrite H1, H2, H3, H4, H5. repeat split; ring.
Qed.

(* multiplying every SLD by mu multiplies F^2 by mu^2 at every mesh point *)
Definition rescale_sld (mu : R) (p : pt) : pt := let '(w, f, vf, vs, re) := p in (w, mu ^ 2 * f, vf, vs, re).
Lemma sums_rescale_sld mu l :
  sF (map (rescale_sld mu) l) = mu ^ 2 * sF l /\ sVs (map (rescale_sld mu) l) = sVs l.
Proof.
  induction l as [|[[[[w f] vf] vs] re] l IH]; simpl; [split; ring|].
  destruct IH as [H1 H2]. rewrite H1, H2. split; ring.
Qed.

