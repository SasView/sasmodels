(* C09/Wrappers.v - the C wrapper functions generate.make_source writes for the functions a definition gives as inline
   strings. *)
From Coq Require Import List.
Import ListNotations.
Inductive fn := FormVolume | ShellVolume | FIq | FIqxy | FIqac | FIqabc.
(* parameter lists: form_volume_parameters; [q] + iq_parameters; [qx, qy] + iq_parameters + orientation_parameters;
   [qab, qc] + iq_parameters; [qa, qb, qc] + iq_parameters *)
Inductive sig := SVolume | SIq | SIqxy | SIqac | SIqabc.
Definition sig_of (f : fn) : sig :=
  match f with FormVolume | ShellVolume => SVolume | FIq => SIq | FIqxy => SIqxy | FIqac => SIqac | FIqabc => SIqabc end.
Definition all_fns : list fn := [FormVolume; ShellVolume; FIq; FIqxy; FIqac; FIqabc].
Definition wrappers (inl : fn -> bool) : list (fn * sig) := map (fun f => (f, sig_of f)) (filter inl all_fns).

Lemma wrappers_spec inl f s : In (f, s) (wrappers inl) <-> inl f = true /\ s = sig_of f.
Proof.
  unfold wrappers. rewrite in_map_iff. split.
  - intros [g [Hg Hin]]. injection Hg as <- <-. apply filter_In in Hin. split; [apply Hin | reflexivity].
  - intros [Hf ->]. exists f. split; [reflexivity|]. apply filter_In. split; [destruct f; cbn; tauto | exact Hf].
Qed.
