From Coq Require Import List Arith Bool Reals Lia Lra String.
Import ListNotations.
From SM Require Import Base.Tactics Base.Num Base.Mesh Base.Sums C01.Model C09.Model C09.Proofs C09.Wrappers Gen.C09_wrappers.

(* The dispersity loop of kernelpy._loops and the C loop nest accumulate the same sums (norm, volumes, effective
   radius, intensity at every q) for every mesh of positive lengths, cutoff, partition of the C run and previous
   buffer content, given lproj = 1 (C09/Proofs.v).  Both sides are given the same slots; the real C call has max_pd
   of them, those beyond the active ones of length 1: such slots appear only in C09_mono_agree (every weight 1,
   cutoff < 1, lproj = 1). *)
Theorem C09_loops_agree : forall cutoff wt (leaf_at : env -> Leaf (T:=R)) k0 n0 kr nr c parts prev,
  (forall e, lproj (leaf_at e) = 1%R) -> 0 < n0 -> Forall (fun n => 0 < n) nr ->
  covers 0 (prod (n0 :: nr)) parts ->
  py_loops ROps cutoff wt leaf_at k0 n0 kr nr c =
  loop_component ROps cutoff (k0 :: kr) (n0 :: nr) wt leaf_at c parts prev.
Proof.
  intros cutoff wt leaf_at k0 n0 kr nr c parts prev Hproj Hn0 Hnr Hc.
  assert (Hns : Forall (fun n => 0 < n) (n0 :: nr)) by (constructor; assumption).
  unfold loop_component. rewrite run_chunks_independent by assumption.
  unfold py_loops. pose proof (prod_pos _ Hns). destruct (prod (n0 :: nr)) as [|k]; [lia|].
  rewrite py_fold by assumption. reflexivity.
Qed.
Print Assumptions C09_loops_agree.

Theorem C09_mono_agree : forall cutoff wt (leaf_at : env -> Leaf (T:=R)) ks c prev,
  (forall e, lproj (leaf_at e) = 1%R) -> (cutoff < 1)%R -> (forall k i, wt k i = 1%R) ->
  py_mono ROps leaf_at c =
  loop_component ROps cutoff ks (map (fun _ => 1) ks) wt (fun e => leaf_at e0) c [(0, 1)] prev.
Proof.
  intros cutoff wt leaf_at ks c prev Hp Hc Hw.
  (* the call (0, 1) is one body on the zeroed accumulator *)
  unfold loop_component, run_chunks, invoke. cbn [fold_left fst snd Nat.eqb Nat.sub cloop Nat.leb].
  unfold body, term, py_mono. rewrite Hp.
  assert (W : forall idx, wprod ROps wt ks idx = 1%R).
  { induction ks as [|k r IH]; intros idx; simpl; auto. destruct idx; simpl; auto. rewrite Hw, IH. lra. }
  rewrite W. cbn [mul add ltb zero ROps].
  replace (1 * 1)%R with 1%R by ring.
  destruct (Rltb_spec cutoff 1); [|lra].
  destruct (lvalid (leaf_at e0)); lra.
Qed.
Print Assumptions C09_mono_agree.

Theorem C09_validator_sound : forall unit d, validate unit d = true -> well_formed unit d.
Proof.
  intros unit d. unfold validate. rewrite !andb_true_iff, forallb_forall. intros [[[[Hpar Hang] Hnd] _] Hxy].
  assert (P := fun p Hp => par_ok_spec p (Hpar p Hp)).
  (* the three per-parameter fields are the conjuncts of par_ok_spec *)
  constructor; try (intros p Hp; apply (P p Hp)).
  - apply model_nodupb_NoDup. exact Hnd.
  - intros p Hp. unfold angles_ok in Hang. apply andb_true_iff in Hang. destruct Hang as [Ha _].
    rewrite forallb_forall in Ha. specialize (Ha p Hp). apply Bool.eqb_prop in Ha.
    rewrite <- smem_In, Ha. symmetry. apply String.eqb_eq.
  - intros Hpy. unfold xy_ok in Hxy. rewrite Hpy in Hxy.
    split; [|split]; intros E; rewrite E in Hxy.
    + exact Hxy.
    + apply andb_true_iff in Hxy. destruct Hxy as [Ho Hn]. apply negb_true_iff in Hn. auto.
    + apply negb_true_iff in Hxy. exact Hxy.
Qed.
Print Assumptions C09_validator_sound.

Theorem C09_validator_rejects : forall unit d p, In p (d_pars d) ->
  (ext_lt (p_lo p) (p_hi p) = false \/ ext_lt (p_def p) (p_lo p) = true \/ ext_lt (p_hi p) (p_def p) = true
   \/ ~ In (p_type p) ["volume"; "orientation"; "sld"; "magnetic"; ""]%string
   \/ (p_type p = "orientation"%string /\ ~ In (p_id p) angle_names)
   \/ (In (p_id p) angle_names /\ p_type p <> "orientation"%string)
   \/ In (p_id p) ["scale"; "background"]%string) ->
  validate unit d = false.
Proof.
  intros unit d p Hp Hbad. destruct (validate unit d) eqn:E; auto. exfalso.
  pose proof (C09_validator_sound unit d E) as W.
  destruct Hbad as [H|[H|[H|[H|[H|[H|H]]]]]].
  - rewrite (wf_limits W p Hp) in H. discriminate.
  - destruct (wf_default W p Hp) as [A _]. unfold ext_le in A. rewrite H in A. discriminate.
  - destruct (wf_default W p Hp) as [_ A]. unfold ext_le in A. rewrite H in A. discriminate.
  - apply H. apply (wf_types W p Hp).
  - destruct H as [A B]. apply B. apply (wf_orientation W p Hp). exact A.
  - destruct H as [A B]. apply B. apply (wf_orientation W p Hp). exact A.
  - pose proof (wf_names W) as N. apply in_map with (f := p_id) in Hp.
    apply NoDup_cons_iff in N. destruct N as [N1 N2]. apply NoDup_cons_iff in N2. destruct N2 as [N3 _].
    destruct H as [H|[H|[]]].
    + apply N1. right. rewrite H. exact Hp.
    + apply N3. rewrite H. exact Hp.
Qed.
Print Assumptions C09_validator_rejects.

Theorem C09_validator_rejects_duplicate : forall unit d a b pre mid post,
  d_pars d = (pre ++ a :: mid ++ b :: post)%list -> p_id a = p_id b -> validate unit d = false.
Proof.
  intros unit d a b pre mid post Hd Hab. destruct (validate unit d) eqn:E; auto. exfalso.
  pose proof (wf_names (C09_validator_sound unit d E)) as N.
  rewrite Hd in N. apply NoDup_cons_iff, proj2, NoDup_cons_iff, proj2 in N.
  rewrite map_app in N. cbn [map] in N. apply NoDup_remove_2 in N. apply N.
  apply in_or_app. right. rewrite map_app. apply in_or_app. right. left. auto.
Qed.
Print Assumptions C09_validator_rejects_duplicate.

Theorem C09_validator_rejects_misplaced : forall unit d,
  (match last_index_of "theta" (d_pars d) 0, last_index_of "phi" (d_pars d) 0, last_index_of "psi" (d_pars d) 0 with
   | Some t, Some f, None => f <> S t \/ S f <> List.length (d_pars d)
   | Some t, Some f, Some s => f <> S t \/ s <> S f \/ (S f <> List.length (d_pars d) /\ S s <> List.length (d_pars d))
   | None, None, None => False
   | _, _, _ => True
   end) -> validate unit d = false.
Proof.
  intros unit d H. unfold validate.
  (* the position test of angles_ok is the boolean form of the negation of H: decide each of its equations *)
  assert (A : angles_ok (d_pars d) = false).
  { unfold angles_ok. apply andb_false_iff. right.
    destruct (last_index_of "theta" (d_pars d) 0) as [t|], (last_index_of "phi" (d_pars d) 0) as [f|],
             (last_index_of "psi" (d_pars d) 0) as [s|]; try reflexivity; try contradiction.
    - destruct (Nat.eqb_spec f (S t)), (Nat.eqb_spec s (S f)), (Nat.eqb_spec (S f) (List.length (d_pars d))),
               (Nat.eqb_spec (S s) (List.length (d_pars d))); try reflexivity; lia.
    - destruct (Nat.eqb_spec f (S t)), (Nat.eqb_spec (S f) (List.length (d_pars d))); try reflexivity; lia. }
  rewrite A, andb_false_r. reflexivity.
Qed.
Print Assumptions C09_validator_rejects_misplaced.

(* both executions start from the same definition only if every function the definition gives as an inline string
   reaches the C source: which wrappers make_source writes is READ from the current generate.py (Gen/C09_wrappers.v,
   the isinstance(model_info.X, str) statements with their nesting) - a wrapper for X is written exactly when X is an
   inline string, with the parameter list of its kind, whatever form the OTHER functions of the definition have *)
Theorem C09_code_wrappers : wrappers_translated = true -> forall inl, code_wrappers inl = wrappers inl.
Proof.
  intros Ht. untranslated Ht.
  all: intros inl; unfold code_wrappers, wrappers, all_fns; cbn [filter map app].
  all: destruct (inl FormVolume), (inl ShellVolume), (inl FIq), (inl FIqxy), (inl FIqac), (inl FIqabc); reflexivity.
Qed.
Print Assumptions C09_code_wrappers.
Theorem C09_code_wrapper_iff : wrappers_translated = true -> forall inl f s,
  In (f, s) (code_wrappers inl) <-> inl f = true /\ s = sig_of f.
Proof. intros Ht inl f s. rewrite (C09_code_wrappers Ht). apply wrappers_spec. Qed.
Print Assumptions C09_code_wrapper_iff.
