(* C09/Proofs.v — two parts.  kernelpy._loops against the C nest of C01: the whole Python state after every pass, in
   closed form ([after], [py_fold]).  The definition validator: [well_formed] is what an accepted definition satisfies. *)
From Coq Require Import List Arith Bool Reals Lia Lra String ZArith.
Import ListNotations.
From SM Require Import Base.Num Base.Lists Base.Mesh Base.Sums C01.Model C09.Model.

Lemma fold_wprod (wt : nat -> nat -> R) ks : forall idx a,
  fold_left (fun a ki => mul ROps a (wt (fst ki) (snd ki))) (combine ks idx) a = (a * wprod ROps wt ks idx)%R.
Proof.
  induction ks as [|k ks IH]; intros [|i idx] a; simpl; try lra. rewrite IH. ring.
Qed.

Section Agree.
  Open Scope nat_scope.   (* C09.Model leaves string_scope open: put =? of nat above it *)
  Variable cutoff : R.
  Variable wt : nat -> nat -> R.
  Variable leaf_at : env -> Leaf (T:=R).
  (* a pure-Python definition has no orientation parameters: no spherical correction *)
  Hypothesis proj_one : forall e, lproj (leaf_at e) = 1%R.

  Variable k0 n0 : nat.
  Variable kr nr : list nat.
  Hypothesis Hn0 : 0 < n0.

  (* what the Python loop holds after the pass for loop_index s: the NEXT innermost index (n0 = "wrapped"),
     the outer indices and the partial weight of s, and the accumulator *)
  Definition after (s : nat) (acc : R) : pst :=
    MkPst (S (s mod n0)) (decode nr (s / n0)) (py_partial ROps wt kr (decode nr (s / n0))) acc.

  (* one pass is one body of the C nest, provided the cached indices are those of s or are about to be recomputed *)
  Lemma py_step_spec c s st :
    p0i st = n0 \/ (p0i st, pouter st, ppw st) = (s mod n0, decode nr (s / n0), py_partial ROps wt kr (decode nr (s / n0))) ->
    py_step ROps cutoff wt leaf_at k0 n0 kr nr c st s =
    after s (body ROps cutoff (k0 :: kr) wt leaf_at c (decode (n0 :: nr) s) (pacc st)).
  Proof.
    intros H. unfold py_step, after.
    replace (if p0i st =? n0 then _ else _)
      with (s mod n0, decode nr (s / n0), py_partial ROps wt kr (decode nr (s / n0))).
    2:{ destruct H as [E|E].
        - rewrite E, Nat.eqb_refl. reflexivity.
        - rewrite E. destruct (_ =? _); reflexivity. }
    f_equal. unfold body, term, py_partial. cbn [decode wprod]. rewrite fold_wprod, proj_one.
    set (w0 := wprod ROps wt kr (decode nr (s / n0))).
    set (lf := leaf_at (bind (k0 :: kr) (s mod n0 :: decode nr (s / n0)) e0)).
    cbn [mul add ltb zero one ROps].
    replace (1 * (wt k0 (s mod n0) * w0))%R with (1 * w0 * wt k0 (s mod n0))%R by ring.
    destruct (Rltb cutoff (1 * w0 * wt k0 (s mod n0))), (lvalid lf); try reflexivity; lra.
  Qed.

  Lemma py_fold c k :
    fold_left (py_step ROps cutoff wt leaf_at k0 n0 kr nr c) (seq 0 (S k)) (py_init ROps n0) =
    after k (steps R (body ROps cutoff (k0 :: kr) wt leaf_at c) (n0 :: nr) 0 (S k) 0%R).
  Proof.
    induction k as [|k IH].
    - cbn [seq fold_left]. rewrite py_step_spec by (left; reflexivity). reflexivity.
    - rewrite seq_S, fold_left_app, IH. cbn [fold_left plus]. rewrite py_step_spec.
      + rewrite (steps_S _ _ _ 0 (S k)). reflexivity.
      + (* the cached indices are those of S k unless the innermost one wraps *)
        cbn [after p0i pouter ppw]. destruct (Nat.eq_dec (S (k mod n0)) n0) as [E|E]; [left; exact E | right].
        destruct (succ_nowrap k n0) as [-> ->]; [|reflexivity].
        pose proof (Nat.mod_upper_bound k n0). lia.   (* with Hn0 *)
  Qed.
End Agree.

Open Scope string_scope.

Lemma smem_In x l : smem x l = true <-> In x l.
Proof. apply existsb_eqb_In. Qed.

(* [nodupb] is C09.Model's own, written with [smem]; it is Base.Lists' by conversion *)
Lemma model_nodupb_NoDup l : nodupb l = true -> NoDup l.
Proof. exact (Lists.nodupb_NoDup l). Qed.

(* of what [validate] tests, the control parameters and the place of the angles in the table are not carried over;
   [unit], the scale of the control limits, is therefore not used *)
Set Implicit Arguments.
Record well_formed (unit : Z) (d : defn) : Prop := {
  wf_limits : forall p, In p (d_pars d) -> ext_lt (p_lo p) (p_hi p) = true;
  wf_default : forall p, In p (d_pars d) -> ext_le (p_lo p) (p_def p) = true /\ ext_le (p_def p) (p_hi p) = true;
  wf_types : forall p, In p (d_pars d) -> In (p_type p) ["volume"; "orientation"; "sld"; "magnetic"; ""];
  wf_names : NoDup ("scale" :: "background" :: map p_id (d_pars d));
  wf_orientation : forall p, In p (d_pars d) -> (p_type p = "orientation" <-> In (p_id p) angle_names);
  wf_xy : d_python d = false ->
          (d_xy d = XYqabc -> is_asymmetric (d_pars d) = true) /\
          (d_xy d = XYqac -> has_orientation (d_pars d) = true /\ is_asymmetric (d_pars d) = false) /\
          (d_xy d = XYnone -> has_orientation (d_pars d) = false)
}.
Unset Implicit Arguments.

Lemma par_ok_spec p : par_ok p = true ->
  ext_lt (p_lo p) (p_hi p) = true /\ (ext_le (p_lo p) (p_def p) = true /\ ext_le (p_def p) (p_hi p) = true)
  /\ In (p_type p) ["volume"; "orientation"; "sld"; "magnetic"; ""].
Proof. unfold par_ok. rewrite !andb_true_iff, smem_In. tauto. Qed.
